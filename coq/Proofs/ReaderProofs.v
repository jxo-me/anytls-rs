(* ReaderProofs.v -- the per-stream reader (Model/Reader.v) and reader programs (Model/ReaderProg.v):
   what a program reports over the reader depends only on the bytes still obtainable from it and on whether
   the channel has ended, not on how the bytes are cut into chunks. *)
From Coq Require Import List NArith ZArith Lia Bool.
From AnyTLS Require Import Bytes Reader ReaderProg BytesFacts.
Import ListNotations.
Open Scope N_scope.

Lemma is_nil_true {A} (l : list A) : is_nil l = true <-> l = [].
Proof. destruct l; cbn; split; intros H; congruence. Qed.

Lemma is_nil_false {A} (l : list A) : is_nil l = false <-> l <> [].
Proof. destruct l; cbn; split; intros H; congruence. Qed.

Lemma pop_nonempty_none q : pop_nonempty q = None <-> concat q = [].
Proof.
  induction q as [|c q IH]; cbn [pop_nonempty concat]; [tauto|].
  destruct c as [|x c]; cbn [is_nil app]; [exact IH|]. split; intros H; discriminate.
Qed.

Lemma pop_nonempty_some q c q' :
  pop_nonempty q = Some (c, q') -> c <> [] /\ concat q = c ++ concat q'.
Proof.
  induction q as [|c0 q IH]; cbn [pop_nonempty concat]; [discriminate|].
  destruct c0 as [|x c0]; cbn [is_nil app].
  - exact IH.
  - intros H. inversion H; subst. split; [discriminate | reflexivity].
Qed.

(* the reader never reports EOF while chunks are still queued: `eof` is only set when the channel
   returned None, i.e. it is empty and every sender is gone *)
Definition rd_wf (st : rd) : Prop := reof st = true -> rq st = [] /\ rclosed st = true.

Lemma rd_wf_of_chunks chunks closed : rd_wf (rd_of_chunks chunks closed).
Proof. unfold rd_wf, rd_of_chunks. cbn. discriminate. Qed.

Lemma rd_pending_of_chunks chunks closed : rd_pending_bytes (rd_of_chunks chunks closed) = concat chunks.
Proof. reflexivity. Qed.

Lemma rd_wf_push st c : reof st = false -> rd_wf (rd_push st c).
Proof. unfold rd_wf, rd_push. cbn. congruence. Qed.

Lemma rd_pending_push st c : rd_pending_bytes (rd_push st c) = rd_pending_bytes st ++ c.
Proof.
  unfold rd_pending_bytes, rd_push. cbn. rewrite concat_app. cbn [concat].
  rewrite app_nil_r, app_assoc. reflexivity.
Qed.

Lemma rd_wf_close r : rd_wf r -> rd_wf (rd_close r).
Proof. unfold rd_wf, rd_close. cbn. intros H He. destruct (H He) as [Hq _]. auto. Qed.

Lemma rd_read_data_nonempty r cap r' d : 0 < cap -> rd_read r cap = (r', RData d) -> d <> [].
Proof.
  intros Hcap. unfold rd_read. destruct (reof r && is_nil (rbuf r)); [discriminate|].
  destruct (rbuf r) as [|x bf]; cbn [is_nil negb].
  - destruct (pop_nonempty (rq r)) as [[c q']|] eqn:Ep; [|destruct (rclosed r); discriminate].
    intros H. injection H as _ <-. rewrite takeN_min.
    apply takeN_nonempty; [exact Hcap | apply (pop_nonempty_some _ _ _ Ep)].
  - intros H. injection H as _ <-. rewrite takeN_min. apply takeN_nonempty; [exact Hcap | discriminate].
Qed.

Lemma rd_read_spec st cap :
  rd_wf st ->
  exists st' res, rd_read st cap = (st', res) /\ rd_wf st' /\ rclosed st' = rclosed st /\
    match res with
    | RData d => lenN d <= cap /\ reof st' = reof st /\ rd_pending_bytes st = d ++ rd_pending_bytes st'
    | REof => rclosed st = true /\ rd_pending_bytes st = [] /\ rd_pending_bytes st' = []
    | RPending => rclosed st = false /\ rd_pending_bytes st = [] /\ rd_pending_bytes st' = [] /\
                  reof st' = reof st
    end.
Proof.
  intros Hwf.
  (* both data arms hand out the front of a chunk and keep its tail *)
  assert (Hpiece : forall c : bytes,
            lenN (takeN (N.min (lenN c) cap) c) <= cap /\
            c = takeN (N.min (lenN c) cap) c ++ dropN (N.min (lenN c) cap) c).
  { intros c. rewrite takeN_min, dropN_min, takeN_dropN. split; [apply lenN_takeN_le | reflexivity]. }
  unfold rd_read, rd_pending_bytes. destruct (rbuf st) as [|x bf] eqn:Eb; cbn [is_nil negb].
  - rewrite andb_true_r. cbn [app]. destruct (reof st) eqn:Ee.
    + destruct (Hwf Ee) as [Hq Hc]. exists st, REof. rewrite Eb, Hq. auto 10.
    + destruct (pop_nonempty (rq st)) as [[c q']|] eqn:Ep.
      * destruct (pop_nonempty_some _ _ _ Ep) as [_ Hcat]. destruct (Hpiece c) as (H2 & H3).
        eexists _, _. split; [reflexivity|]. cbn [rq rbuf rclosed reof].
        split; [unfold rd_wf; cbn; congruence|]. split; [reflexivity|].
        rewrite Hcat, app_assoc, <- H3. auto.
      * apply pop_nonempty_none in Ep.
        destruct (rclosed st) eqn:Ec; eexists _, _; (split; [reflexivity|]); unfold rd_wf; cbn.
        -- (* closed and drained: Eof, which the reader records *)
           auto 10.
        -- (* open: Pending, and nothing is recorded *)
           split; [discriminate | auto 10].
  - rewrite andb_false_r. destruct (Hpiece (x :: bf)) as (H2 & H3).
    eexists _, _. split; [reflexivity|]. cbn [rq rbuf rclosed reof].
    split; [exact Hwf|]. split; [reflexivity|]. rewrite app_assoc, <- H3. auto.
Qed.

Definition drains_to (r : rd) (X : bytes) : Prop :=
  forall caps, Forall (fun cap => 0 < cap) caps ->
    let '(_, got, e) := rd_read_script r caps in
    (exists rest, got ++ rest = X) /\ (e = true -> got = X).

Lemma closed_drains r : rd_wf r -> rclosed r = true -> drains_to r (rd_pending_bytes r).
Proof.
  intros Hwf Hc caps _. revert r Hwf Hc.
  induction caps as [|cap caps IH]; intros r Hwf Hc; cbn [rd_read_script].
  - split; [exists (rd_pending_bytes r); reflexivity | discriminate].
  - destruct (rd_read_spec r cap Hwf) as (r1 & res & Hr & Hwf1 & Hc1 & Hres). rewrite Hr.
    destruct res as [d| |].
    + destruct Hres as (_ & _ & Hcat). specialize (IH r1 Hwf1 ltac:(congruence)).
      destruct (rd_read_script r1 caps) as [[r2 got] e]. destruct IH as [[rest E] He]. rewrite Hcat. split.
      * exists rest. rewrite <- app_assoc, E. reflexivity.
      * intros Ht. rewrite (He Ht). reflexivity.
    + destruct Hres as (_ & Hp & _). rewrite Hp. split; [exists []; reflexivity | reflexivity].
    + destruct Hres as (Hx & _). congruence.
Qed.

Lemma rd_read_exact_fuel_spec fuel : forall st need acc,
  rd_wf st -> (N.to_nat need <= fuel)%nat ->
  exists st', rd_read_exact_fuel fuel st need acc =
      (st', if need <=? lenN (rd_pending_bytes st) then XOk (acc ++ takeN need (rd_pending_bytes st))
            else if rclosed st then XEof else XPending) /\
    rd_wf st' /\ rclosed st' = rclosed st /\
    (need <= lenN (rd_pending_bytes st) -> rd_pending_bytes st' = dropN need (rd_pending_bytes st)).
Proof.
  induction fuel as [|k IH]; intros st need acc Hwf Hf; cbn [rd_read_exact_fuel];
    destruct (N.eqb_spec need 0) as [->|Hnz].
  (* nothing is asked for, whatever the fuel *)
  1, 3: exists st; rewrite takeN_0, app_nil_r, dropN_0; destruct (N.leb_spec 0 (lenN (rd_pending_bytes st))); [auto | lia].
  1: lia.
  destruct (rd_read_spec st need Hwf) as (st1 & res & Hr & Hwf1 & Hc1 & Hres). rewrite Hr.
  destruct res as [d| |].
  1: { destruct Hres as (Hdl & _ & Hcat).
    pose proof (proj2 (lenN_pos_iff d) (rd_read_data_nonempty st need st1 d ltac:(lia) Hr)) as Hd.
    destruct (IH st1 (need - lenN d) (acc ++ d) Hwf1 ltac:(lia)) as (st2 & Hx & Hwf2 & Hc2 & Hp2).
    exists st2. rewrite Hx, Hcat, lenN_app, takeN_app_ge, dropN_app_ge, <- app_assoc, Hc1 by exact Hdl.
    split; [|split; [exact Hwf2 | split; [congruence | intros Hle; apply Hp2; lia]]].
    destruct (N.leb_spec (need - lenN d) (lenN (rd_pending_bytes st1))),
             (N.leb_spec need (lenN d + lenN (rd_pending_bytes st1))); (reflexivity || lia). }
  (* nothing pending: the channel's state decides *)
  all: destruct Hres as (Hc & Hp & _); exists st1; rewrite Hp, Hc;
    destruct (N.leb_spec need (lenN (@nil N))) as [Hle|]; rewrite lenN_nil in *; [lia|];
    (split; [reflexivity|]); (split; [exact Hwf1|]); split; [congruence | lia].
Qed.

Theorem rd_read_exact_spec st n :
  rd_wf st ->
  exists st', rd_read_exact st n =
      (st', if n <=? lenN (rd_pending_bytes st) then XOk (takeN n (rd_pending_bytes st))
            else if rclosed st then XEof else XPending) /\
    rd_wf st' /\ rclosed st' = rclosed st /\
    (n <= lenN (rd_pending_bytes st) -> rd_pending_bytes st' = dropN n (rd_pending_bytes st)).
Proof. intros Hwf. apply (rd_read_exact_fuel_spec _ st n [] Hwf). lia. Qed.

Corollary rd_read_exact_chunks chunks closed n :
  (n <= lenN (concat chunks) ->
     exists st', rd_read_exact (rd_of_chunks chunks closed) n = (st', XOk (takeN n (concat chunks))) /\
       rd_pending_bytes st' = dropN n (concat chunks) /\ rclosed st' = closed /\ rd_wf st') /\
  (lenN (concat chunks) < n ->
     exists st', rd_read_exact (rd_of_chunks chunks closed) n = (st', if closed then XEof else XPending)).
Proof.
  destruct (rd_read_exact_spec (rd_of_chunks chunks closed) n (rd_wf_of_chunks _ _)) as (st' & Hx & Hwf & Hc & Hp).
  rewrite rd_pending_of_chunks in *. split; intros H; exists st'; rewrite Hx.
  - destruct (N.leb_spec n (lenN (concat chunks))); [auto | lia].
  - destruct (N.leb_spec n (lenN (concat chunks))); [lia | reflexivity].
Qed.

Lemma concat_filter_nonempty (chunks : list bytes) :
  concat (filter (fun c => negb (is_nil c)) chunks) = concat chunks.
Proof.
  induction chunks as [|c cs IH]; [reflexivity|]. cbn [filter concat].
  destruct c; cbn [is_nil negb]; [exact IH | cbn [concat]; rewrite IH; reflexivity].
Qed.

Lemma byte_at_app_l i (a b : bytes) : (i < length a)%nat -> byte_at i (a ++ b) = byte_at i a.
Proof. intros H. unfold byte_at. apply app_nth1. exact H. Qed.

Lemma byte_at_dropN i n (b : bytes) : byte_at i (dropN n b) = byte_at (N.to_nat n + i) b.
Proof. unfold byte_at, dropN. apply nth_skipn_add. Qed.

Lemma byte_at_takeN i n (b : bytes) : (i < N.to_nat n)%nat -> byte_at i (takeN n b) = byte_at i b.
Proof. unfold byte_at, takeN. apply nth_firstn_lt. Qed.

Lemma de16_of_take2_drop n (b : bytes) :
  de16_of (takeN 2 (dropN n b)) = de16 (byte_at (N.to_nat n) b) (byte_at (S (N.to_nat n)) b).
Proof.
  unfold de16_of. rewrite !byte_at_takeN by lia. rewrite !byte_at_dropN.
  rewrite Nat.add_0_r, Nat.add_1_r. reflexivity.
Qed.

Lemma de16_of_be16 p : p < 65536 -> de16_of (be16 p) = p.
Proof. intros H. unfold de16_of, byte_at, be16. cbn [nth]. apply de16_be16. exact H. Qed.

Section Progs.
Context {A : Type}.

Definition answered (x : pres A) : Prop := x <> NeedMore.

Theorem run_bytes_prefix_stable (p : prog A) b m :
  answered (run_bytes p b) ->
  run_bytes p (b ++ m) =
    match run_bytes p b with Accept v r => Accept v (r ++ m) | x => x end.
Proof.
  revert b. induction p as [a|e|n ee k IH|k IH]; intros b H; cbn [run_bytes] in *; try reflexivity.
  - destruct (N.leb_spec n (lenN b)) as [Hle|]; [|elim H; reflexivity].
    rewrite (proj2 (N.leb_le n (lenN (b ++ m)))) by (rewrite lenN_app; lia).
    rewrite takeN_app_le, dropN_app_le by exact Hle. apply IH, H.
  - destruct b as [|x b]; [elim H; reflexivity|]. apply IH, H.
Qed.

Lemma run_bytes_app_accept (p : prog A) : forall b m v r,
  run_bytes p b = Accept v r -> run_bytes p (b ++ m) = Accept v (r ++ m).
Proof. intros b m v r H. rewrite run_bytes_prefix_stable; rewrite H; [reflexivity | discriminate]. Qed.

Lemma run_bytes_app_reject (p : prog A) : forall b m e,
  run_bytes p b = Reject e -> run_bytes p (b ++ m) = Reject e.
Proof. intros b m e H. rewrite run_bytes_prefix_stable; rewrite H; [reflexivity | discriminate]. Qed.

Corollary run_bytes_needmore_prefix (p : prog A) b m :
  run_bytes p (b ++ m) = NeedMore -> run_bytes p b = NeedMore.
Proof.
  intros H. destruct (run_bytes p b) as [|e|v r] eqn:E; [reflexivity| |].
  - rewrite (run_bytes_app_reject p b m e E) in H. discriminate.
  - rewrite (run_bytes_app_accept p b m v r E) in H. discriminate.
Qed.

Lemma run_bytes_accept_suffix (p : prog A) : forall b v r,
  run_bytes p b = Accept v r -> exists c, b = c ++ r.
Proof.
  induction p as [a|e|n ee k IH|k IH]; intros b v r H; cbn [run_bytes] in *.
  - inversion H; subst. exists []. reflexivity.
  - discriminate.
  - destruct (N.leb_spec n (lenN b)) as [Hle|]; [|discriminate].
    destruct (IH _ _ _ _ H) as [c Hc]. exists (takeN n b ++ c).
    rewrite <- app_assoc, <- Hc, takeN_dropN. reflexivity.
  - destruct b as [|x b]; [discriminate|]. destruct (IH _ _ _ _ H) as [c Hc].
    exists (x :: c). cbn [app]. congruence.
Qed.

Lemma run_bytes_proper_prefix (p : prog A) b s v :
  run_bytes p (b ++ s) = Accept v [] -> s <> [] -> run_bytes p b = NeedMore.
Proof.
  intros H Hs. destruct (run_bytes p b) as [|e|v' r] eqn:E; [reflexivity| |].
  - rewrite (run_bytes_app_reject p b s e E) in H. discriminate.
  - rewrite (run_bytes_app_accept p b s v' r E) in H. inversion H.
    apply app_eq_nil in H2. destruct H2. contradiction.
Qed.

Lemma run_exact_app n e (k : bytes -> prog A) (a r : bytes) :
  lenN a = n -> run_bytes (PExact n e k) (a ++ r) = run_bytes (k a) r.
Proof.
  intros Hl. cbn [run_bytes]. rewrite lenN_app.
  destruct (N.leb_spec n (lenN a + lenN r)); [|lia].
  rewrite <- Hl, takeN_app_exact, dropN_app_exact. reflexivity.
Qed.

Inductive exact_only (e : N) : prog A -> Prop :=
| eo_ret a : exact_only e (PRet a)
| eo_fail x : exact_only e (PFail x)
| eo_exact n k : (forall b, exact_only e (k b)) -> exact_only e (PExact n e k).

(* for such a parser an incomplete input followed by end-of-input is the UnexpectedEof error *)
Lemma run_eof_needmore (p : prog A) e :
  exact_only e p -> forall b, run_bytes p b = NeedMore -> run_eof p b = FFail e.
Proof.
  induction 1 as [a|x|n k Hk IH]; intros b Hb; cbn [run_bytes run_eof] in *; try discriminate.
  destruct (n <=? lenN b); [apply IH; exact Hb | reflexivity].
Qed.

(* what a program answers on the bytes b when it is also known whether the input ends after them:
   run_bytes for an input that may go on, run_eof for one that has ended *)
Fixpoint run_flat (p : prog A) (closed : bool) (b : bytes) : pres A :=
  match p with
  | PRet a => Accept a b
  | PFail e => Reject e
  | PExact n ee k =>
      if n <=? lenN b then run_flat (k (takeN n b)) closed (dropN n b)
      else if closed then Reject ee else NeedMore
  | PByte0 k =>
      match b with
      | x :: r => run_flat (k x) closed r
      | [] => if closed then run_flat (k 0) closed [] else NeedMore
      end
  end.

Definition pres_of_fres (x : fres A) : pres A :=
  match x with FDone v r => Accept v r | FFail e => Reject e end.

Lemma run_flat_open (p : prog A) : forall b, run_flat p false b = run_bytes p b.
Proof.
  induction p as [a|e|n ee k IH|k IH]; intros b; cbn [run_flat run_bytes]; try reflexivity.
  - destruct (n <=? lenN b); [apply IH | reflexivity].
  - destruct b; [reflexivity | apply IH].
Qed.

Lemma run_flat_closed (p : prog A) : forall b, run_flat p true b = pres_of_fres (run_eof p b).
Proof.
  induction p as [a|e|n ee k IH|k IH]; intros b; cbn [run_flat run_eof]; try reflexivity.
  - destruct (n <=? lenN b); [apply IH | reflexivity].
  - destruct b; apply IH.
Qed.

Lemma run_flat_answered (p : prog A) closed : forall b,
  answered (run_bytes p b) -> run_flat p closed b = run_bytes p b.
Proof.
  induction p as [a|e|n ee k IH|k IH]; intros b H; cbn [run_flat run_bytes] in *; try reflexivity.
  - destruct (n <=? lenN b); [apply IH, H | elim H; reflexivity].
  - destruct b; [elim H; reflexivity | apply IH, H].
Qed.

Definition sres_of_pres (x : pres A) : sres A :=
  match x with Accept v _ => SDone v | Reject e => SFail e | NeedMore => SPending end.

Theorem run_rd_spec (p : prog A) : forall st,
  rd_wf st ->
  exists st', run_rd p st = (st', sres_of_pres (run_flat p (rclosed st) (rd_pending_bytes st))) /\
    rd_wf st' /\ rclosed st' = rclosed st /\
    forall v r, run_flat p (rclosed st) (rd_pending_bytes st) = Accept v r -> rd_pending_bytes st' = r.
Proof.
  induction p as [a|e|n ee k IH|k IH]; intros st Hwf; cbn [run_rd run_flat].
  - exists st. refine (conj eq_refl (conj Hwf (conj eq_refl _))). intros v r E. injection E as _ E. exact E.
  - exists st. refine (conj eq_refl (conj Hwf (conj eq_refl _))). discriminate.
  - destruct (rd_read_exact_spec st n Hwf) as (st1 & Hx & Hwf1 & Hc1 & Hp1). rewrite Hx.
    destruct (N.leb_spec n (lenN (rd_pending_bytes st))) as [Hle|Hlt].
    + destruct (IH (takeN n (rd_pending_bytes st)) st1 Hwf1) as (st2 & Hr & Hwf2 & Hc2 & Hp2).
      rewrite Hc1, (Hp1 Hle) in Hr, Hp2. exists st2. refine (conj Hr (conj Hwf2 (conj _ Hp2))). congruence.
    + exists st1. refine (conj _ (conj Hwf1 (conj Hc1 _))); destruct (rclosed st); (reflexivity || discriminate).
  - destruct (rd_read_spec st 1 Hwf) as (st1 & res & Hr & Hwf1 & Hc1 & Hres). rewrite Hr.
    destruct res as [d| |].
    + (* one byte arrives *)
      destruct Hres as (Hdl & _ & Hcat). pose proof (rd_read_data_nonempty st 1 st1 d N.lt_0_1 Hr) as Hd.
      destruct d as [|y [|z d]]; [congruence| |rewrite !lenN_cons in Hdl; lia].
      rewrite Hcat. cbn [app hd].
      destruct (IH y st1 Hwf1) as (st2 & Hr2 & Hwf2 & Hc2 & Hp2). rewrite Hc1 in Hr2, Hp2.
      exists st2. refine (conj Hr2 (conj Hwf2 (conj _ Hp2))). congruence.
    + (* the buffer keeps its 0 *)
      destruct Hres as (Hc & Hp & Hp1). rewrite Hp, Hc.
      destruct (IH 0 st1 Hwf1) as (st2 & Hr2 & Hwf2 & Hc2 & Hp2). rewrite Hc1, Hc, Hp1 in Hr2, Hp2.
      exists st2. refine (conj Hr2 (conj Hwf2 (conj _ Hp2))). congruence.
    + destruct Hres as (Hc & Hp & _). rewrite Hp, Hc.
      exists st1. refine (conj eq_refl (conj Hwf1 (conj _ _))); [congruence | discriminate].
Qed.

Lemma run_rd_accept (p : prog A) st v r :
  rd_wf st -> run_bytes p (rd_pending_bytes st) = Accept v r ->
  exists st', run_rd p st = (st', SDone v) /\ rd_pending_bytes st' = r /\
              rclosed st' = rclosed st /\ rd_wf st'.
Proof.
  intros Hwf H. destruct (run_rd_spec p st Hwf) as (st' & Hr & Hwf' & Hc & Hp).
  rewrite run_flat_answered, H in Hr, Hp by (rewrite H; discriminate).
  exists st'. exact (conj Hr (conj (Hp v r eq_refl) (conj Hc Hwf'))).
Qed.

Lemma run_rd_reject (p : prog A) st e :
  rd_wf st -> run_bytes p (rd_pending_bytes st) = Reject e ->
  exists st', run_rd p st = (st', SFail e).
Proof.
  intros Hwf H. destruct (run_rd_spec p st Hwf) as (st' & Hr & _).
  rewrite run_flat_answered, H in Hr by (rewrite H; discriminate). exists st'. exact Hr.
Qed.

Lemma run_rd_pending (p : prog A) st :
  rd_wf st -> rclosed st = false -> run_bytes p (rd_pending_bytes st) = NeedMore ->
  exists st', run_rd p st = (st', SPending).
Proof.
  intros Hwf Hc H. destruct (run_rd_spec p st Hwf) as (st' & Hr & _).
  rewrite Hc, run_flat_open, H in Hr. exists st'. exact Hr.
Qed.

Lemma run_rd_needmore (p : prog A) st e :
  rd_wf st -> exact_only e p -> run_bytes p (rd_pending_bytes st) = NeedMore ->
  exists st', run_rd p st = (st', if rclosed st then SFail e else SPending).
Proof.
  intros Hwf He H. destruct (run_rd_spec p st Hwf) as (st' & Hr & _). exists st'. rewrite Hr.
  destruct (rclosed st).
  - rewrite run_flat_closed, (run_eof_needmore p e He _ H). reflexivity.
  - rewrite run_flat_open, H. reflexivity.
Qed.

Lemma run_chunks_flat (p : prog A) chunks closed :
  run_chunks p chunks closed = sres_of_pres (run_flat p closed (concat chunks)).
Proof.
  unfold run_chunks. destruct (run_rd_spec p (rd_of_chunks chunks closed) (rd_wf_of_chunks _ _)) as (st' & -> & _).
  reflexivity.
Qed.

Corollary run_chunks_fragmentation (p : prog A) c1 c2 closed :
  concat c1 = concat c2 -> run_chunks p c1 closed = run_chunks p c2 closed.
Proof. intros H. rewrite !run_chunks_flat, H. reflexivity. Qed.

Lemma run_rd_chunks_accept (p : prog A) chunks closed v rest :
  run_bytes p (concat chunks) = Accept v rest ->
  exists st', run_rd p (rd_of_chunks chunks closed) = (st', SDone v) /\
              rd_pending_bytes st' = rest /\ rclosed st' = closed.
Proof.
  intros H. rewrite <- (rd_pending_of_chunks chunks closed) in H.
  destruct (run_rd_accept p _ v rest (rd_wf_of_chunks _ _) H) as (st' & H1 & H2 & H3 & _).
  exists st'. exact (conj H1 (conj H2 H3)).
Qed.

End Progs.

(* DestProofs.v -- the destination codec of Model/Dest.v (C07 part (a)): the decoder returns the destination and
   port that were encoded (addr_k_ok is the step shared with the UDP initial request and with SOCKS5), for every
   chunking; what the client encodes from a host string decodes to its classification; which names route to
   UDP-over-TCP. *)
From Coq Require Import List NArith ZArith Lia Bool.
From AnyTLS Require Import Bytes Reader ReaderProg Generated FactsParsers Dest BytesFacts ReaderProofs.
Import ListNotations.
Open Scope N_scope.

Definition wf_dest (d : dest) : Prop :=
  match d with
  | DV4 a => lenN a = 4
  | DV6 a => lenN a = 16
  | DName n => 1 <= lenN n <= 255 /\ utf8_valid n = true
  end.

Lemma wf_destb_wf d : wf_destb d = true -> wf_dest d.
Proof.
  destruct d as [a|a|n]; cbn [wf_destb wf_dest]; rewrite !andb_true_iff, ?N.eqb_eq, ?N.leb_le; tauto.
Qed.

Lemma port_k_ok {A} (f : N -> A) p rest :
  p < 65536 -> run_bytes (port_k f) (be16 p ++ rest) = Accept (f p) rest.
Proof.
  intros H. unfold port_k. rewrite run_exact_app by reflexivity.
  cbn [run_bytes]. rewrite de16_of_be16 by exact H. reflexivity.
Qed.

Lemma name_k_ok {A} (k : bytes -> prog A) n r :
  1 <= lenN n <= 255 -> utf8_valid n = true ->
  run_bytes (name_k k) (u8_of (lenN n) :: n ++ r) = run_bytes (k n) r.
Proof.
  intros Hl Hu. unfold name_k.
  change (u8_of (lenN n) :: n ++ r) with ([u8_of (lenN n)] ++ n ++ r).
  rewrite run_exact_app by reflexivity.
  unfold byte_at. cbn [nth]. unfold u8_of. replace (lenN n mod 256) with (lenN n) by lia_div.
  destruct (N.eqb_spec (lenN n) 0); [lia|]. destruct (N.ltb_spec 255 (lenN n)); [lia|].
  cbn [orb]. rewrite run_exact_app by reflexivity. rewrite Hu. reflexivity.
Qed.

Definition dest_atyp (d : dest) : N := match d with DV4 _ => atyp_v4 | DV6 _ => atyp_v6 | DName _ => atyp_name end.
Definition dest_addr (d : dest) : bytes := match d with DV4 a => a | DV6 a => a | DName n => u8_of (lenN n) :: n end.

Lemma dest_wire_eq d p : dest_wire d p = dest_atyp d :: dest_addr d ++ be16 p.
Proof. now destruct d. Qed.

Lemma addr_k_ok {A} (k : dest -> prog A) d r :
  wf_dest d -> run_bytes (addr_k (dest_atyp d) k) (dest_addr d ++ r) = run_bytes (k d) r.
Proof.
  destruct d as [a|a|n]; cbn [wf_dest dest_atyp dest_addr]; intros Hw; unfold addr_k, atyp_v4, atyp_v6, atyp_name;
    cbn [N.eqb Pos.eqb].
  - apply (run_exact_app 4 E_EOF (fun a => k (DV4 a))). exact Hw.
  - apply (run_exact_app 16 E_EOF (fun a => k (DV6 a))). exact Hw.
  - destruct Hw as [Hl Hu]. cbn [app]. apply (name_k_ok (fun d => k (DName d))); assumption.
Qed.

(* end of input inside any of these is the UnexpectedEof error *)
Lemma port_k_exact_only {A} (f : N -> A) : exact_only E_EOF (port_k f).
Proof. constructor. intros p. constructor. Qed.

Lemma name_k_exact_only {A} (k : bytes -> prog A) : (forall d, exact_only E_EOF (k d)) -> exact_only E_EOF (name_k k).
Proof.
  intros Hk. constructor. intros l. cbv zeta. destruct (_ || _); constructor.
  intros d. destruct (utf8_valid d); [apply Hk|constructor].
Qed.

Lemma addr_k_exact_only {A} atyp (k : dest -> prog A) :
  (forall d, exact_only E_EOF (k d)) -> exact_only E_EOF (addr_k atyp k).
Proof.
  intros Hk. unfold addr_k. destruct (atyp =? atyp_v4); [constructor; intros; apply Hk|].
  destruct (atyp =? atyp_name); [apply name_k_exact_only; intros; apply Hk|].
  destruct (atyp =? atyp_v6); constructor. intros; apply Hk.
Qed.

Lemma dest_roundtrip d p rest :
  wf_dest d -> p < 65536 -> dest_decode (dest_wire d p ++ rest) = Accept (d, p) rest.
Proof.
  intros Hw Hp. unfold dest_decode, dest_prog. rewrite dest_wire_eq. cbn [app run_bytes].
  rewrite <- app_assoc, addr_k_ok by exact Hw. now apply port_k_ok.
Qed.

Lemma udp_init_roundtrip d p rest :
  wf_dest d -> p < 65536 -> udp_init_decode (udp_init_encode d p ++ rest) = Accept (d, p) rest.
Proof.
  intros Hw Hp. unfold udp_init_decode, udp_init_prog, udp_init_encode. rewrite dest_wire_eq.
  change ((1 :: dest_atyp d :: dest_addr d ++ be16 p) ++ rest)
    with ([1] ++ [dest_atyp d] ++ (dest_addr d ++ be16 p) ++ rest).
  rewrite run_exact_app by reflexivity. unfold byte_at at 1. cbn [nth N.eqb Pos.eqb].
  rewrite run_exact_app by reflexivity. unfold byte_at. cbn [nth].
  rewrite <- app_assoc, addr_k_ok by exact Hw. now apply port_k_ok.
Qed.

Section Client.
Variable parse_v4 parse_v6 : bytes -> option bytes.

Lemma client_roundtrip host p rest :
  wf_dest (classify parse_v4 parse_v6 host) -> p < 65536 ->
  exists w, client_encode parse_v4 parse_v6 host p = Some w /\
            dest_decode (w ++ rest) = Accept (classify parse_v4 parse_v6 host, p) rest.
Proof.
  intros Hw Hp. unfold client_encode.
  destruct (classify parse_v4 parse_v6 host) as [a|a|n] eqn:E.
  - eexists. split; [reflexivity|]. apply dest_roundtrip; assumption.
  - eexists. split; [reflexivity|]. apply dest_roundtrip; assumption.
  - destruct Hw as [Hl Hu]. destruct (N.leb_spec (lenN n) 255); [|lia].
    eexists. split; [reflexivity|]. apply dest_roundtrip; [split|]; assumption.
Qed.

Lemma client_encode_too_long host p :
  parse_v4 host = None -> parse_v6 host = None -> 255 < lenN host ->
  client_encode parse_v4 parse_v6 host p = None.
Proof.
  intros H4 H6 Hl. unfold client_encode, classify. rewrite H4, H6.
  destruct (N.leb_spec (lenN host) 255); [lia | reflexivity].
Qed.

Lemma classify_name host : parse_v4 host = None -> parse_v6 host = None ->
  classify parse_v4 parse_v6 host = DName host.
Proof. intros H4 H6. unfold classify. rewrite H4, H6. reflexivity. Qed.
End Client.

Lemma dest_chunking d p rest chunks closed :
  wf_dest d -> p < 65536 -> concat chunks = dest_wire d p ++ rest ->
  exists st', run_rd dest_prog (rd_of_chunks chunks closed) = (st', SDone (d, p)) /\
              rd_pending_bytes st' = rest /\ rclosed st' = closed.
Proof. intros Hw Hp Hc. apply run_rd_chunks_accept. rewrite Hc. now apply dest_roundtrip. Qed.

Lemma udp_init_chunking d p rest chunks closed :
  wf_dest d -> p < 65536 -> concat chunks = udp_init_encode d p ++ rest ->
  exists st', run_rd udp_init_prog (rd_of_chunks chunks closed) = (st', SDone (d, p)) /\
              rd_pending_bytes st' = rest /\ rclosed st' = closed.
Proof. intros Hw Hp Hc. apply run_rd_chunks_accept. rewrite Hc. now apply udp_init_roundtrip. Qed.

Lemma is_prefixb_spec m : forall n, is_prefixb m n = true <-> exists c, n = m ++ c.
Proof.
  induction m as [|x m IH]; intros n; cbn [is_prefixb].
  - split; [intros _; exists n; reflexivity | reflexivity].
  - destruct n as [|y n].
    + split; [discriminate | intros [c Hc]; discriminate].
    + rewrite andb_true_iff, N.eqb_eq, IH. split.
      * intros [-> [c ->]]. exists c. reflexivity.
      * intros [c Hc]. cbn [app] in Hc. inversion Hc; subst. split; [reflexivity | exists c; reflexivity].
Qed.

Definition is_infix (m n : bytes) : Prop := exists a c, n = a ++ m ++ c.

Lemma is_infixb_spec m : forall n, is_infixb m n = true <-> is_infix m n.
Proof.
  induction n as [|y n IH]; cbn [is_infixb]; rewrite orb_true_iff, is_prefixb_spec.
  - split.
    + intros [[c Hc]|Hf]; [|discriminate]. exists [], c. exact Hc.
    + intros (a & c & Hc). left. destruct a as [|z a]; [|discriminate]. exists c. exact Hc.
  - rewrite IH. split.
    + intros [[c Hc]|(a & c & Hc)]; [exists [], c; exact Hc | exists (y :: a), c; cbn [app]; congruence].
    + intros (a & c & Hc). destruct a as [|z a].
      * left. exists c. exact Hc.
      * right. cbn [app] in Hc. inversion Hc; subst. exists a, c. reflexivity.
Qed.

Lemma route_udp_iff d :
  route d = RUdp <-> exists n, d = DName n /\ is_infix udp_magic_infix n.
Proof.
  destruct d as [a|a|n]; cbn [route].
  - split; [discriminate | intros (n & Hn & _); discriminate].
  - split; [discriminate | intros (n & Hn & _); discriminate].
  - destruct (is_infixb udp_magic_infix n) eqn:E.
    + split; [|reflexivity]. intros _. exists n. split; [reflexivity|]. apply is_infixb_spec. exact E.
    + split; [discriminate|]. intros (n' & Hn & Hi). inversion Hn; subst.
      apply is_infixb_spec in Hi. congruence.
Qed.

Lemma magic_addr_routes_udp : route (DName udp_magic_addr) = RUdp /\ wf_dest (DName udp_magic_addr).
Proof.
  split.
  - apply route_udp_iff. exists udp_magic_addr. split; [reflexivity|].
    exists [115; 112; 46; 118; 50; 46], []. rewrite app_nil_r. exact udp_magic_addr_contains_infix.
  - cbn [wf_dest]. split; [vm_compute; split; discriminate|reflexivity].
Qed.

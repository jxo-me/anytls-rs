(* TextProofs.v -- facts about the text functions of Model/Text.v used by the scheme language *)
From Coq Require Import List NArith ZArith Lia Bool.
From AnyTLS Require Import Bytes Text.
Import ListNotations.
Open Scope N_scope.

Lemma parse_u32_bound s n : parse_u32 s = Some n -> n < 4294967296.
Proof.
  unfold parse_u32. destruct (parse_nat_digits _) as [v|]; [|discriminate].
  destruct (Z.leb_spec v u32_max) as [Hv|Hv]; [|discriminate]. intros E; inversion E; subst. unfold u32_max in *. lia.
Qed.

Lemma parse_i64_bound s z : parse_i64 s = Some z -> (i64_min <= z <= i64_max)%Z.
Proof.
  unfold parse_i64.
  destruct (match s with 45 :: t => (true, t) | 43 :: t => (false, t) | _ => (false, s) end) as [neg body].
  destruct (parse_nat_digits body) as [v|]; [|discriminate].
  destruct ((i64_min <=? (if neg then (- v)%Z else v))%Z && ((if neg then (- v)%Z else v) <=? i64_max)%Z) eqn:E; [|discriminate].
  intros H; inversion H; subst. apply andb_true_iff in E. destruct E as [E1 E2].
  apply Z.leb_le in E1. apply Z.leb_le in E2. lia.
Qed.

Lemma parse_digits_nonneg s : forall acc v, (0 <= acc)%Z -> parse_digits acc s = Some v -> (acc <= v)%Z.
Proof.
  induction s as [|c s IH]; intros acc v Ha H; cbn in H.
  - inversion H; lia.
  - unfold digit_val in H. destruct ((48 <=? c) && (c <=? 57)) eqn:E; [|discriminate].
    apply IH in H; lia.
Qed.

(* an unsigned parser never accepts a minus sign, an empty string or a lone sign *)
Lemma parse_u32_rejects : parse_u32 [] = None /\ parse_u32 [43] = None /\ forall t, parse_u32 (45 :: t) = None.
Proof. repeat split. Qed.

Lemma parse_i64_rejects : parse_i64 [] = None /\ parse_i64 [43] = None /\ parse_i64 [45] = None.
Proof. repeat split. Qed.

(* split_once cuts at the first occurrence *)
Lemma split_once_spec c s a b :
  split_once c s = Some (a, b) -> s = a ++ c :: b /\ ~ In c a.
Proof.
  revert a b. induction s as [|x s IH]; intros a b H; cbn in H; [discriminate|].
  destruct (N.eqb_spec x c) as [->|Hne].
  - inversion H; subst. split; [reflexivity | intros []].
  - destruct (split_once c s) as [[a' b']|]; [|discriminate]. inversion H; subst.
    destruct (IH a' b eq_refl) as [-> Hn]. split; [reflexivity|]. intros [E|E]; [congruence | auto].
Qed.

Lemma split_once_none c s : split_once c s = None -> ~ In c s.
Proof.
  induction s as [|x s IH]; intros H; cbn in H; [intros []|].
  destruct (N.eqb_spec x c); [discriminate|]. destruct (split_once c s) as [[? ?]|]; [discriminate|].
  intros [E|E]; [congruence | exact (IH eq_refl E)].
Qed.

(* split never returns an empty list, and joining the pieces with the separator gives the input back *)
Fixpoint join (c : N) (l : list bytes) : bytes :=
  match l with [] => [] | [p] => p | p :: t => p ++ c :: join c t end.

Lemma split_nonempty c s : split c s <> [].
Proof. destruct s as [|x s]; cbn; [discriminate|]. destruct (x =? c); [discriminate|]. destruct (split c s); discriminate. Qed.

Lemma join_split c s : join c (split c s) = s.
Proof.
  induction s as [|x s IH]; [reflexivity|]. cbn [split].
  destruct (N.eqb_spec x c) as [->|Hne].
  - pose proof (split_nonempty c s). destruct (split c s) as [|p ps] eqn:E; [congruence|].
    cbn [join app]. cbn [join] in IH. rewrite IH. reflexivity.
  - destruct (split c s) as [|p ps] eqn:E; [exfalso; eapply split_nonempty; exact E|].
    destruct ps; cbn [join app] in *; rewrite IH; reflexivity.
Qed.

(* trim_start removes exactly the leading ASCII white space *)
Lemma trim_start_spec s : exists w, s = w ++ trim_start s /\ forallb is_ws w = true /\
  match trim_start s with [] => True | c :: _ => is_ws c = false end.
Proof.
  induction s as [|c s IH]; [exists []; repeat split|]. cbn [trim_start].
  destruct (is_ws c) eqn:E.
  - destruct IH as (w & Hs & Hw & Hh). exists (c :: w). cbn [app forallb]. rewrite E, Hw.
    split; [f_equal; exact Hs | split; [reflexivity | exact Hh]].
  - exists []. repeat split. exact E.
Qed.

Lemma trim_start_idem s : trim_start (trim_start s) = trim_start s.
Proof.
  destruct (trim_start_spec s) as (_ & _ & _ & H). destruct (trim_start s) as [|c t]; [reflexivity|].
  cbn [trim_start]. rewrite H. reflexivity.
Qed.

(* the last binding of a key wins *)
Lemma map_get_last k v m : map_get k (m ++ [(k, v)]) = Some v.
Proof.
  induction m as [|[k' v'] m IH]; cbn [app map_get].
  - assert (bytes_eqb k k = true) as ->; [|reflexivity].
    induction k as [|x k IHk]; cbn; [reflexivity | rewrite N.eqb_refl, IHk; reflexivity].
  - rewrite IH. reflexivity.
Qed.

(* canonical decimal rendering of packet numbers, checked on the boundary values *)
Example u32_to_string_samples :
  u32_to_string 0 = [48] /\ u32_to_string 7 = [55] /\ u32_to_string 10 = [49; 48] /\
  u32_to_string 4294967295 = [52; 50; 57; 52; 57; 54; 55; 50; 57; 53] /\
  parse_u32 (u32_to_string 4294967295) = Some 4294967295 /\ parse_u32 [48; 49] = Some 1.
Proof. repeat split. Qed.

(* lines: `\n` terminates, `\r\n` too, no empty last line, a final line without `\n` keeps a trailing `\r` *)
Example lines_samples :
  lines [] = [] /\ lines [10] = [[]] /\ lines [97; 10] = [[97]] /\ lines [97; 13; 10; 98] = [[97]; [98]] /\
  lines [97; 10; 10] = [[97]; []] /\ lines [97; 13] = [[97; 13]].
Proof. repeat split. Qed.

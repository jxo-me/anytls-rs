(* ConcPump.v -- the outbound data path of proxied streams on Model/Conc.v:
     application  --Stream::send_data-->  unbounded channel (dq)  --forwarding task (process_stream_data)-->  write_data_frame
   For every program list in which one task p does nothing but run the forwarding loop and nobody else does,
   and for every schedule, while the session is open:
     pump_fifo      what p has submitted ++ what it holds ++ the channel = everything the applications pushed, in push order
                    (nothing dropped, duplicated or reordered between the application and write_frame);
     run_syn_first  every pushed frame belongs to a stream whose SYN is already in the linearisation log, and in the
                    log every frame of p comes after the SYN of its stream.
   Together with C11_task_order (what p submitted is, in order, what p has in the log) and C11_wire_is_log this is
   "frames of one stream reach the wire in the order the application wrote them, after the stream's SYN". *)
From Coq Require Import List NArith ZArith Bool.
From AnyTLS Require Import Bytes Cmd Generated Frame Conc ConcInv ConcLin ConcDeath ConcOrder.
Import ListNotations.

(* a frame the forwarding task has taken from the channel and not yet submitted *)
Definition pre_hand (p : pc) : list frame := match p with PW0 WkPump f => [f] | _ => [] end.

Definition Qs (s : state) : list witem * list witem * option tid := (dq s, pushed s, pump_owner s).

Lemma qs_framed a s' : framed a s' -> Qs s' = Qs a.
Proof. intros F. unfold Qs. rewrite (fr_dq F), (fr_pushed F), (fr_pump_owner F). reflexivity. Qed.
Lemma q_wake s : Qs (wake_pump_closed s) = Qs s.
Proof. exact (qs_framed _ _ (framed_wake s)). Qed.
Lemma qs_fields s' q pu o : Qs s' = (q, pu, o) -> dq s' = q /\ pushed s' = pu /\ pump_owner s' = o.
Proof. unfold Qs. intros E. inversion E. auto. Qed.

Definition keeps_parked (s s' : state) (t : tid) : Prop := forall u, u <> t -> pcof s u = PPwait -> pcof s' u = PPwait.

Lemma keeps_parked_pcs s s' t : (forall u, u <> t -> pcof s' u = pcof s u) -> keeps_parked s s' t.
Proof. intros E u Hne H. rewrite E by exact Hne. exact H. Qed.

(* What a step does to the channel and to parked tasks. Where the stepping task lands is left to its move
   (ConcInv.step_self; the two lemmas below), except that a step that leaves the channel as it is hands it no item. *)
Inductive view (s : state) (t : tid) (s' : state) : Prop :=
| V_same : Qs s' = Qs s -> keeps_parked s s' t -> (forall f, pcof s' t <> PW0 WkPump f) -> view s t s'
| V_push : forall f, pcof s t = PIdle ->
    (exists sid d rest, t_prog (tasks s t) = CSend d :: rest /\ t_sid (tasks s t) = Some sid /\ f = psh_frame sid d) ->
    pushed s' = pushed s ++ [(t, f)] -> pump_owner s' = pump_owner s ->
    ((dq s' = dq s ++ [(t, f)] /\ keeps_parked s s' t /\ forall p, pump_owner s = Some p -> pcof s p <> PPwait)
     \/ (exists p, p <> t /\ pump_owner s = Some p /\ pcof s p = PPwait /\ dq s' = dq s /\ pcof s' p = PW0 WkPump f)) ->
    view s t s'
| V_take : pump_owner s = None -> Qs s' = (dq s, pushed s, Some t) -> pcof s t = PIdle -> pcof s' t = PIdle ->
    (exists rest, t_prog (tasks s t) = CPump :: rest) -> keeps_parked s s' t -> view s t s'
| V_pop : forall u f q, pump_owner s = Some t -> dq s = (u, f) :: q -> Qs s' = (q, pushed s, Some t) ->
    pcof s t = PIdle -> pcof s' t = PW0 WkPump f -> keeps_parked s s' t -> view s t s'.

Lemma handed_at_pump s t s' f :
  step s t = Some s' -> pcof s' t = PW0 WkPump f -> pcof s t = PIdle /\ exists rest, t_prog (tasks s t) = CPump :: rest.
Proof. intros H. destruct (step_self s t s' H); intros E; try discriminate E. eauto. Qed.
Lemma parks_empty s t s' : step s t = Some s' -> pcof s' t = PPwait -> pump_owner s = Some t /\ dq s = [].
Proof. intros H. destruct (step_self s t s' H); intros E; try discriminate E. split; assumption. Qed.

Lemma push_view s t f :
  closed s = false ->
  pushed (push_item s t f) = pushed s ++ [(t, f)] /\ pump_owner (push_item s t f) = pump_owner s /\
  ((dq (push_item s t f) = dq s ++ [(t, f)] /\ (forall p, pump_owner s = Some p -> pcof s p <> PPwait) /\
    tasks (push_item s t f) = tasks s)
   \/ (exists p, pump_owner s = Some p /\ pcof s p = PPwait /\ dq (push_item s t f) = dq s /\
                 pcof (push_item s t f) p = PW0 WkPump f)).
Proof.
  intros C. split; [apply pushed_push | split; [exact (fr_pump_owner (framed_push s t f))|]].
  unfold push_item. rewrite C. destruct (pump_owner s) as [p|] eqn:Eo.
  - destruct (is_ppwait (t_pc (tasks s p))) eqn:E.
    + right. exists p. split; [reflexivity | split; [apply ppwait_pc; exact E | split; [reflexivity | apply pcof_set_task_same]]].
    + left. split; [reflexivity | split; [|reflexivity]].
      intros p' Ep' Hp. inversion Ep'; subst. unfold pcof in Hp. rewrite Hp in E. discriminate.
  - left. split; [reflexivity | split; [intros p' Ep'; discriminate | reflexivity]].
Qed.

(* on an open session only a push takes a task out of recv() *)
Lemma parked_kept s t s' :
  Inv s -> step s t = Some s' -> closed s = false ->
  (forall d rest, pcof s t = PIdle -> t_prog (tasks s t) <> CSend d :: rest) -> keeps_parked s s' t.
Proof.
  intros HI H C NS u Hu Pu.
  destruct (step_others s t s' HI H u Hu)
    as [E|k f A _ _|a k A _ _ _|_ A _ _|_ _ [(C1 & _)|(Pi & d & rest & Ep)] _]; try congruence.
  destruct (NS d rest Pi Ep).
Qed.

Theorem step_view s t s' : Inv s -> step s t = Some s' -> closed s' = false -> view s t s'.
Proof.
  intros HI H C'. pose proof (open_back s t s' H C') as C.
  (* a step from another pc than PIdle that is framed from a state with the channel of s *)
  assert (forall a, pcof s t <> PIdle -> framed a s' -> Qs a = Qs s -> view s t s') as Busy.
  { intros a N F Q. apply V_same; [rewrite (qs_framed a s' F); exact Q | |].
    - apply (parked_kept s t s' HI H C). intros d rest Pi. contradiction.
    - intros f E. apply N, (handed_at_pump s t s' f H E). }
  destruct (step_shape_of s t s' H) as [[T _ _ _ _ _ E|s1 a k B ->|ev rest P Ep Hr ->|d sid rest P Ep Es ->|a k P ->]
                                        |k f P W ->|q Q W ->|k f P ->|k held P _ _ ->|k held P _ _ ->].
  - assert (keeps_parked s s' t) as K by (apply keeps_parked_pcs; intros u Hu; unfold pcof; rewrite (touches_other T u Hu); reflexivity).
    destruct E as [_ Nf F|? ? _ Pi _ F|_ Pi F|P Pi Ep Eo F|u f q P Pq _ Eo Ed F|? ? P F|P F|? P F].
    + apply V_same; [exact (qs_framed s s' F) | exact K|].
      intros f E. apply (Nf f); [apply (handed_at_pump s t s' f H E) | exact E].
    + apply V_same; [exact (qs_framed _ s' F) | exact K | rewrite Pi; discriminate].
    + apply V_same; [exact (qs_framed _ s' F) | exact K | rewrite Pi; discriminate].
    + apply V_take; [exact Eo | exact (qs_framed _ s' F) | exact P | exact Pi | exact Ep | exact K].
    + apply (V_pop s t _ u f q); [exact Eo | exact Ed | | exact P | exact (Pq C) | exact K].
      rewrite (qs_framed _ s' F). unfold Qs. cbn. rewrite Eo. reflexivity.
    + apply (Busy _ ltac:(congruence) F). reflexivity.
    + apply (Busy _ ltac:(congruence) F). reflexivity.
    + apply (Busy _ ltac:(congruence) F). reflexivity.
  - (* close() sets the flag *)
    rewrite (fr_closed (framed_enter_close s1 t a k)) in C'. discriminate.
  - apply V_same; [exact (qs_framed _ _ (framed_feed_step _ t ev)) | |].
    + apply (parked_kept s t _ HI H C). intros d r _ E. rewrite Ep in E. discriminate.
    + intros f E. destruct (handed_at_pump s t _ f H E) as (_ & r & E2). rewrite Ep in E2. discriminate.
  - (* the push *)
    set (f := psh_frame sid d).
    destruct (push_view (popped s t rest) t f C) as (Pu & Ow & [(D & NW & TS)|(p & Eo & Ew & D & Pp)]);
      apply (V_push s t _ f); try assumption; try (exists sid, d, rest; auto).
    + left. split; [exact D | split].
      * apply keeps_parked_pcs. intros u Hu. rewrite (pcu_other (pcu_finish _ t ResOk) u Hu).
        unfold pcof. rewrite TS. apply (popped_pc s t rest u).
      * intros p Ep' Hp. apply (NW p Ep'). rewrite popped_pc. exact Hp.
    + rewrite popped_pc in Ew. assert (p <> t) as Hpt by (intros ->; congruence).
      right. exists p. split; [exact Hpt | split; [exact Eo | split; [exact Ew | split; [exact D|]]]].
      rewrite (pcu_other (pcu_finish _ t ResOk) p Hpt). exact Pp.
  - apply (Busy _ ltac:(congruence) (framed_drain_step s t (PC2 a k))). reflexivity.
  - apply (Busy _ ltac:(congruence) (framed_set_tasks _ _)). reflexivity.
  - apply (Busy _ ltac:(intros E; rewrite E in Q; exact Q) (framed_set_tasks _ _)). reflexivity.
  - apply (Busy _ ltac:(congruence) (framed_set_tasks _ _)). reflexivity.
  - apply (Busy _ ltac:(congruence) (framed_write_fail s t _ _ _)). reflexivity.
  - apply (Busy _ ltac:(congruence) (framed_write_ok s t k _ _)). reflexivity.
Qed.

Definition is_po (p : pc) : bool := match p with PO0 | PO0b _ | PO1 _ => true | _ => false end.

Section Pump.
Variable p : tid.
Hypothesis p_not_recv : p <> rtid.

Definition only_pump (l : list call) : Prop := Forall (fun c => c = CPump) l.

Record PF (s : state) : Prop := {
  pf_owner : pump_owner s = None \/ pump_owner s = Some p;
  pf_prog_p : only_pump (t_prog (tasks s p));
  pf_prog_o : forall u, u <> p -> ~ In CPump (t_prog (tasks s u));
  pf_nopo : is_po (pcof s p) = false;
  pf_wait : forall u, pcof s u = PPwait -> u = p /\ pump_owner s = Some p /\ dq s = [];
  pf_fifo : t_sub (tasks s p) ++ pre_hand (pcof s p) ++ map snd (dq s) = map snd (pushed s)
}.

(* a move of the forwarding task that takes nothing from the channel: it stays out of open_stream, and what it
   submits is what it held *)
Lemma pump_move s pc0 prog q prog' :
  move s p pc0 prog q prog' -> only_pump prog -> is_po pc0 = false -> closed s = false -> (forall f, q <> PW0 WkPump f) ->
  is_po q = false /\ submitted pc0 q ++ pre_hand q = pre_hand pc0.
Proof.
  intros M Pp Np C Nf.
  (* a program of CPump alone starts no write, open or close *)
  destruct M; try (inversion Pp; discriminate); try destruct k; try discriminate; try congruence; split; reflexivity.
Qed.

(* the pc of p after a step of another task that leaves parked tasks alone *)
Lemma other_pre_hand s t s' :
  Inv s -> step s t = Some s' -> p <> t -> keeps_parked s s' t ->
  pre_hand (pcof s' p) = pre_hand (pcof s p) /\ (is_po (pcof s p) = false -> is_po (pcof s' p) = false).
Proof.
  intros HI H Hne K.
  destruct (step_others s t s' HI H p Hne) as [E|k f A B _|a k A B _ _|A _ _ _|A _ _ _];
    [rewrite E; auto | rewrite A, B; auto | rewrite A, B; auto | contradiction | rewrite (K p Hne A), A; auto].
Qed.

Lemma other_ppwait_back s t s' u : Inv s -> step s t = Some s' -> u <> t -> pcof s' u = PPwait -> pcof s u = PPwait.
Proof.
  intros HI H Hne P.
  destruct (step_others s t s' HI H u Hne) as [E|k f A B _|a k A B _ _|_ _ _ [B|B]|A _ _ [B|[f B]]];
    try (rewrite B in P; discriminate). rewrite <- E. exact P.
Qed.

Theorem step_pf s t s' : Inv s -> PF s -> step s t = Some s' -> closed s' = false -> PF s'.
Proof.
  intros HI [Ho Pp Po Np Pw Pf] H C'. pose proof (open_back s t s' H C') as C.
  pose proof (step_view s t s' HI H C') as V.
  assert (forall rest, t_prog (tasks s t) = CPump :: rest -> t = p) as HeadP.
  { intros rest E. destruct (Nat.eq_dec t p) as [->|Hne]; [reflexivity|]. exfalso. apply (Po t Hne). rewrite E. left. reflexivity. }
  assert (forall u, pump_owner s = Some u -> u = p) as OwnP.
  { intros u E. destruct Ho as [E2|E2]; rewrite E2 in E; [discriminate | inversion E; reflexivity]. }
  assert (only_pump (t_prog (tasks s' p))) as Pp'.
  { destruct (prog_suffix s t s' p H) as [E|[c E]]; [rewrite E; exact Pp | rewrite E in Pp; inversion Pp; assumption]. }
  assert (forall u, u <> p -> ~ In CPump (t_prog (tasks s' u))) as Po'.
  { intros u Hu Hin. apply (Po u Hu). destruct (prog_suffix s t s' u H) as [E|[c E]]; rewrite E in *; [exact Hin | right; exact Hin]. }
  (* a task parked after the step: the stepping one has just found its channel empty, another was parked before *)
  assert (forall u, pcof s' u = PPwait -> u = p /\ pump_owner s = Some p /\ dq s = []) as Parked.
  { intros u Pu. destruct (Nat.eq_dec u t) as [->|Hu]; [|exact (Pw u (other_ppwait_back s t s' u HI H Hu Pu))].
    destruct (parks_empty s t s' H Pu) as [O D]. rewrite <- (OwnP t O). auto. }
  destruct (Nat.eq_dec t p) as [->|Hne].
  - (* the forwarding task steps *)
    destruct (step_ledger s p s' H) as [Sb _].
    destruct V as [Q K Nh|f _ (sid & d & rest & E & _) _ _ _|O Q Pi Pi' _ K|u0 f q O Ed Q Pi Pq K].
    + destruct (qs_fields _ _ _ _ Q) as (D & Pu & Ow).
      destruct (pump_move s _ _ _ _ (step_self s p s' H) Pp Np C Nh) as [Np' Mv].
      constructor; rewrite ?D, ?Pu, ?Ow; auto.
      rewrite Sb, <- app_assoc, (app_assoc (submitted _ _)), Mv. exact Pf.
    + rewrite E in Pp. inversion Pp. discriminate.
    + destruct (qs_fields _ _ _ _ Q) as (D & Pu & Ow). constructor; rewrite ?D, ?Pu, ?Ow, ?Pi'; auto.
      * intros u Hu. destruct (Parked u Hu) as (_ & B & _). congruence.
      * rewrite Sb, Pi, Pi'. rewrite Pi in Pf. cbn. rewrite app_nil_r. exact Pf.
    + destruct (qs_fields _ _ _ _ Q) as (D & Pu & Ow). constructor; rewrite ?D, ?Pu, ?Ow, ?Pq; auto.
      * intros u Hu. destruct (Parked u Hu) as (_ & _ & B). congruence.
      * rewrite Sb, Pi, Pq. rewrite Pi, Ed in Pf. cbn in *. rewrite app_nil_r. exact Pf.
  - (* another task steps: p's submissions stay *)
    assert (p <> t) as Hne' by (intros E; apply Hne; symmetry; exact E).
    rewrite <- (step_bystander _ tr_sub s t s' p H Hne') in Pf.
    destruct V as [Q K _|f _ _ Pu Ow Hp|O _ _ _ (rest & E) _|u f q O _ _ _ _ _];
      [| | exfalso; exact (Hne (HeadP rest E)) | exfalso; exact (Hne (OwnP t O))].
    + destruct (qs_fields _ _ _ _ Q) as (D & Pu & Ow). destruct (other_pre_hand s t s' HI H Hne' K) as [Eh Np'].
      constructor; rewrite ?D, ?Pu, ?Ow, ?Eh; auto.
    + destruct Hp as [(D & K & NW)|(q & Hq & Eq & Wq & D & Pq)].
      * destruct (other_pre_hand s t s' HI H Hne' K) as [Eh Np'].
        constructor; rewrite ?D, ?Pu, ?Ow, ?Eh; auto.
        -- intros u Hu. destruct (Parked u Hu) as (-> & B & _). exfalso. apply (NW p B).
           exact (other_ppwait_back s t s' p HI H Hne' Hu).
        -- rewrite !map_app, !app_assoc. f_equal. rewrite <- !app_assoc. exact Pf.
      * pose proof (OwnP q Eq). subst q.
        destruct (Pw p Wq) as (_ & _ & Ed).
        constructor; rewrite ?D, ?Pu, ?Ow, ?Pq; auto.
        rewrite Ed, map_app. rewrite Wq, Ed in Pf. cbn in *. rewrite app_nil_r in *. rewrite Pf. reflexivity.
Qed.

Lemma pf_init progs buf pend :
  only_pump (nth p progs []) -> (forall u, u <> p -> ~ In CPump (nth u progs [])) -> PF (init progs buf pend).
Proof.
  intros A B. constructor; cbn.
  - left. reflexivity.
  - exact A.
  - exact B.
  - reflexivity.
  - intros u Hu. unfold pcof in Hu. cbn in Hu. discriminate.
  - reflexivity.
Qed.

Theorem pump_fifo progs buf pend sched :
  only_pump (nth p progs []) -> (forall u, u <> p -> ~ In CPump (nth u progs [])) ->
  let s := run (init progs buf pend) sched in
  closed s = false ->
  t_sub (tasks s p) ++ pre_hand (pcof s p) ++ map snd (dq s) = map snd (pushed s).
Proof.
  intros A B s C. apply pf_fifo. unfold s. apply (run_invariant_open PF); [exact step_pf | apply inv_init | apply pf_init; assumption | exact C].
Qed.

End Pump.

(* inside open_stream, for the stream being opened, the frame in hand is that stream's SYN *)
Definition syn_due (p : pc) (sid : N) : Prop :=
  match p with
  | PO0b x | PO1 x => x = sid
  | PW0 WkOpen f | PW1 WkOpen f | PW2 WkOpen f | PW2wait WkOpen f | PW3 WkOpen f => f = syn_frame sid
  | _ => False
  end.
(* for a stream id a task holds: its open is still on the way to the log, or (the handle has been returned, or an
   older handle is still held while a new open starts) the SYN is in the log *)
Definition open_ok (s : state) (u : tid) : Prop :=
  forall sid, t_sid (tasks s u) = Some sid -> syn_due (pcof s u) sid \/ In (u, syn_frame sid) (lin s).

Lemma open_ok_init progs buf pend u : open_ok (init progs buf pend) u.
Proof. intros sid H. cbn in H. discriminate. Qed.

(* the stepping task: its moves keep the frame in hand until it is logged *)
Lemma move_syn_due s t p prog q prog' sid :
  move s t p prog q prog' -> closed s = false -> syn_due p sid -> syn_due q sid \/ In (t, syn_frame sid) (logged t p).
Proof. intros M C D. destruct M; try destruct k; cbn in D |- *; try contradiction; subst; auto; congruence. Qed.

Lemma open_ok_self s t s' : step s t = Some s' -> closed s' = false -> open_ok s t -> open_ok s' t.
Proof.
  intros H C' O sid E. pose proof (open_back s t s' H C') as C.
  destruct (step_sid s t s' t sid H E) as [(_ & P & ->)|(_ & E0)].
  - left. rewrite (po0_next s t s' H P). reflexivity.
  - destruct (O sid E0) as [D|Lg]; [|right; exact (lin_kept s t s' _ H Lg)].
    rewrite (proj2 (step_ledger s t s' H)).
    destruct (move_syn_due s t _ _ _ _ sid (step_self s t s' H) C D) as [D'|Lg]; [left; exact D' | right].
    apply in_or_app. right. exact Lg.
Qed.

Lemma open_ok_other s t s' u : Inv s -> step s t = Some s' -> u <> t -> open_ok s u -> open_ok s' u.
Proof.
  intros HI H Hne O sid E.
  assert (t_sid (tasks s u) = Some sid) as E0.
  { destruct (step_bystander _ tr_stream_kept s t s' u H Hne) as [[A|A] _]; congruence. }
  destruct (O sid E0) as [D|Lg]; [left | right; exact (lin_kept s t s' _ H Lg)].
  destruct (step_others s t s' HI H u Hne) as [A|k f A B _|a k A _ _ _|_ A _ _|A _ _ _];
    [rewrite A; exact D | rewrite A in D; rewrite B; exact D | rewrite A in D; destruct D ..].
Qed.

Definition open_all (s : state) : Prop := forall u, open_ok s u.

Lemma step_open_all s t s' : Inv s -> open_all s -> step s t = Some s' -> closed s' = false -> open_all s'.
Proof.
  intros HI O H C u. destruct (Nat.eq_dec u t) as [->|Hne]; [eapply open_ok_self; eauto | eapply open_ok_other; eauto].
Qed.

(* everything in the channel log belongs to a stream whose SYN is already in the linearisation log *)
Definition pushed_ok (s : state) : Prop := forall u f, In (u, f) (pushed s) -> In (u, syn_frame (fsid f)) (lin s).

Lemma step_pushed_ok s t s' : Inv s -> open_all s -> pushed_ok s -> step s t = Some s' -> closed s' = false -> pushed_ok s'.
Proof.
  intros HI O P H C' u f Hin.
  assert (forall e, In e (lin s) -> In e (lin s')) as G by (intros e; apply (lin_kept s t s' e H)).
  destruct (step_view s t s' HI H C') as [Q _ _|g Ei (sid & d & rest & _ & Es & ->) Pu _ _|_ Q _ _ _ _|x g q _ _ Q _ _ _];
    try (pose proof (proj1 (proj2 (qs_fields _ _ _ _ Q))) as Pu); rewrite Pu in Hin;
    try (apply G, P; exact Hin).
  apply in_app_or in Hin. destruct Hin as [Hin|[E|[]]]; [apply G, P; exact Hin|].
  inversion E as [[E1 E2]]. rewrite <- E1. cbn [fsid psh_frame]. apply G.
  destruct (O t sid Es) as [D|Lg]; [rewrite Ei in D; destruct D | exact Lg].
Qed.

Lemma app_cons_snoc {A} (l l1 l2 : list A) (x y : A) :
  l ++ [x] = l1 ++ y :: l2 -> (l2 = [] /\ l1 = l /\ y = x) \/ exists l2', l2 = l2' ++ [x] /\ l = l1 ++ y :: l2'.
Proof.
  revert l. induction l1 as [|a l1 IH]; intros l E.
  - destruct l as [|b l]; cbn in E.
    + inversion E; subst. left. auto.
    + inversion E; subst. right. exists l. split; reflexivity.
  - destruct l as [|b l]; cbn in E.
    + inversion E as [[E1 E2]]. destruct l1; discriminate.
    + inversion E as [[E1 E2]]. subst a. destruct (IH l E2) as [(H1 & H2 & H3)|(l2' & H1 & H2)].
      * left. subst. auto.
      * right. exists l2'. subst. split; reflexivity.
Qed.

Section PumpSyn.
Variable p : tid.
Hypothesis p_not_recv : p <> rtid.

(* in the linearisation log, every frame the forwarding task has logged is preceded by the SYN of its stream *)
Definition syn_first (s : state) : Prop :=
  forall l1 l2 f, lin s = l1 ++ (p, f) :: l2 -> exists u, In (u, syn_frame (fsid f)) l1.

Lemma mine_in t l f : In f (mine t l) -> In (t, f) l.
Proof.
  unfold mine. intros H. apply in_map_iff in H. destruct H as ([u g] & E & Hin). cbn in E. subst g.
  apply filter_In in Hin. destruct Hin as [Hin Eq]. cbn in Eq. apply Nat.eqb_eq in Eq. subst u. exact Hin.
Qed.

Lemma step_syn_first s t s' :
  Inv s -> PF p s -> pushed_ok s -> order_ok s p -> syn_first s -> step s t = Some s' -> syn_first s'.
Proof.
  intros HI Pf Po Oo S H l1 l2 f E.
  destruct (step_lin_point s t s' H) as [L|(k & g & Pc & L)]; rewrite L in E; [apply (S l1 l2 f E)|].
  destruct (app_cons_snoc _ _ _ _ _ E) as [(_ & -> & Eq)|(l2' & _ & E2)]; [|apply (S l1 l2' f E2)].
  inversion Eq; subst t g.
  (* p appends f: f is the frame p has in hand, hence one of its submissions, hence pushed by some u *)
  assert (In f (t_sub (tasks s p))) as Hs.
  { unfold order_ok in Oo. rewrite <- Oo. apply in_or_app. right. destruct Pc as [-> | ->]; cbn; left; reflexivity. }
  assert (In f (map snd (pushed s))) as Hp.
  { rewrite <- (pf_fifo p s Pf). apply in_or_app. left. exact Hs. }
  apply in_map_iff in Hp. destruct Hp as ([u g] & Eg & Hin). cbn in Eg. subst g.
  exists u. apply Po. exact Hin.
Qed.

Theorem run_syn_first progs buf pend sched :
  only_pump (nth p progs []) -> (forall u, u <> p -> ~ In CPump (nth u progs [])) ->
  Forall (fun x => fst x <> p) pend ->
  let s := run (init progs buf pend) sched in
  closed s = false -> syn_first s /\ pushed_ok s.
Proof.
  intros A B Hp s C.
  apply (run_invariant_open (fun s => PF p s /\ open_all s /\ pushed_ok s /\ order_ok s p /\ syn_first s)) in C;
    [tauto | | apply inv_init |].
  - intros s0 t s1 HI (Pf & Oa & Po & Oo & S) H C1.
    split; [eapply step_pf; eauto | split; [eapply step_open_all; eauto | split; [eapply step_pushed_ok; eauto | split]]].
    + destruct (Nat.eq_dec p t) as [->|Hne]; [eapply order_self; eauto | eapply order_other; eauto].
    + eapply step_syn_first; eauto.
  - split; [apply pf_init; assumption | split; [intros u; apply open_ok_init | split; [intros u f [] | split; [apply order_init; exact Hp|]]]].
    intros l1 l2 f E. cbn in E.
    assert (In (p, f) pend) as Hin by (rewrite E; apply in_or_app; right; left; reflexivity).
    rewrite Forall_forall in Hp. exfalso. apply (Hp _ Hin). reflexivity.
Qed.

End PumpSyn.

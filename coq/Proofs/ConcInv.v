(* ConcInv.v -- lock discipline of Model/Conc.v: mutual exclusion on the writer mutex and the FIFO wait queue, for
   every reachable state (all programs, all schedules). The case analysis of `step s t = Some s'` that the invariants
   of the other Conc files share is step_shape_of: it sorts a step into ten classes by what it touches beside the
   stepper's own record, five that stay clear of the lock (off_shape; off_lock says what such a step does to the lock,
   the queue and every pc) and five of write_frame and close() around it. *)
From Coq Require Import List NArith Bool.
From AnyTLS Require Import Bytes Cmd Generated Frame Conc.
From AnyTLS Require Export ConcFrame.
Import ListNotations.

Definition holds_pc (p : pc) : bool := match p with PW3 _ _ | PW4 _ _ => true | _ => false end.
Definition waits_pc (p : pc) : bool := match p with PW2wait _ _ | PC2wait _ _ => true | _ => false end.
Definition pcof (s : state) (t : tid) : pc := t_pc (tasks s t).
Definition neutral (p : pc) : bool := negb (holds_pc p) && negb (waits_pc p).

Lemma neutral_idle : neutral PIdle = true. Proof. reflexivity. Qed.
Lemma neutral_split p : neutral p = true -> holds_pc p = false /\ waits_pc p = false.
Proof. unfold neutral. intros H. apply andb_prop in H. destruct H as [A B]. apply negb_true_iff in A, B. auto. Qed.
Lemma neutral_not_holds p : neutral p = true -> holds_pc p = true -> False.
Proof. intros N H. rewrite (proj1 (neutral_split p N)) in H. discriminate. Qed.

Lemma pcof_set_task_same s t v : pcof (set_task s t v) t = t_pc v.
Proof. unfold pcof, set_task, set_tasks. cbn. rewrite upd_same. reflexivity. Qed.
Lemma pcof_set_pc_lock s w ws t p t' :
  pcof (set_pc (set_lock s w ws) t p) t' = if Nat.eqb t' t then p else pcof s t'.
Proof. unfold pcof. cbn. unfold upd. destruct (Nat.eqb t' t); reflexivity. Qed.

Definition pc_update (s s' : state) (t : tid) (p : pc) : Prop :=
  wr s' = wr s /\ waiters s' = waiters s /\ pcof s' t = p /\ (forall t', t' <> t -> pcof s' t' = pcof s t').

Lemma pcu_of_tasks s s' t v :
  wr s' = wr s -> waiters s' = waiters s -> tasks s' = upd (tasks s) t v -> pc_update s s' t (t_pc v).
Proof.
  intros A B C. unfold pc_update, pcof. rewrite A, B, C, upd_same. repeat split.
  intros t' H. rewrite upd_other by exact H. reflexivity.
Qed.
Lemma pcu_pc s s' t p : pc_update s s' t p -> pcof s' t = p.
Proof. intros (_ & _ & E & _). exact E. Qed.
Lemma pcu_other {s s' t p} : pc_update s s' t p -> forall u, u <> t -> pcof s' u = pcof s u.
Proof. intros (_ & _ & _ & E). exact E. Qed.
Lemma pcu_set_task s t v : pc_update s (set_task s t v) t (t_pc v).
Proof. apply pcu_of_tasks; reflexivity. Qed.
Lemma pcu_finish s t r : pc_update s (finish s t r) t PIdle.
Proof. exact (pcu_set_task s t (with_res (tasks s t) r)). Qed.
Lemma pcu_set_pc s t p : pc_update s (set_pc s t p) t p.
Proof. exact (pcu_set_task s t (with_pc (tasks s t) p)). Qed.
Lemma pcu_finish_w s t k r : pc_update s (finish_w s t k r) t PIdle.
Proof. destruct k, r; eapply (pcu_of_tasks _ _ _ (with_res _ _)); reflexivity. Qed.
Lemma pcu_finish_close s t a k : pc_update s (finish_close s t a k) t PIdle.
Proof.
  destruct a; [apply pcu_finish | apply pcu_finish_w | eapply (pcu_of_tasks _ _ _ (with_pc _ _)); reflexivity].
Qed.
Lemma pcu_enter_close s t a k : pc_update s (enter_close s t a k) t (if closed s then PIdle else PC1 a k).
Proof. unfold enter_close. destruct (closed s); [apply pcu_finish_close | apply (pcu_set_pc (set_closed s))]. Qed.

Lemma pcof_set_pc s t p : pcof (set_pc s t p) t = p.
Proof. exact (pcu_pc _ _ _ _ (pcu_set_pc s t p)). Qed.
Lemma pcof_finish s t r : pcof (finish s t r) t = PIdle.
Proof. exact (pcu_pc _ _ _ _ (pcu_finish s t r)). Qed.
Lemma pcof_finish_w s t k r : pcof (finish_w s t k r) t = PIdle.
Proof. exact (pcu_pc _ _ _ _ (pcu_finish_w s t k r)). Qed.
Lemma pcof_enter_close s t a k : pcof (enter_close s t a k) t = if closed s then PIdle else PC1 a k.
Proof. exact (pcu_pc _ _ _ _ (pcu_enter_close s t a k)). Qed.

Lemma pc_update_trans s s1 s2 t p1 p2 :
  pc_update s s1 t p1 -> pc_update s1 s2 t p2 -> pc_update s s2 t p2.
Proof.
  intros (A1 & A2 & A3 & A4) (B1 & B2 & B3 & B4). unfold pc_update.
  split; [congruence | split; [congruence | split; [exact B3 |]]].
  intros t' H. rewrite B4, A4 by exact H. reflexivity.
Qed.

Definition quiet (s s' : state) : Prop :=
  wr s' = wr s /\ waiters s' = waiters s /\ forall t', pcof s' t' = pcof s t'.

Lemma quiet_eq s s' : wr s' = wr s -> waiters s' = waiters s -> tasks s' = tasks s -> quiet s s'.
Proof. intros A B C. unfold quiet, pcof. rewrite A, B, C. auto. Qed.
Lemma quiet_refl s : quiet s s.
Proof. apply quiet_eq; reflexivity. Qed.
Lemma quiet_pcof {s s'} : quiet s s' -> forall u, pcof s' u = pcof s u.
Proof. intros (_ & _ & E). exact E. Qed.
Lemma quiet_pcu s s1 s2 t p : quiet s s1 -> pc_update s1 s2 t p -> pc_update s s2 t p.
Proof.
  intros (A1 & A2 & A3) (B1 & B2 & B3 & B4). unfold pc_update.
  split; [congruence | split; [congruence | split; [exact B3 |]]].
  intros t' H. rewrite B4, A3 by exact H. reflexivity.
Qed.
Lemma pcu_quiet s s' t : pc_update s s' t (pcof s t) -> quiet s s'.
Proof.
  intros (A & B & C & D). split; [exact A | split; [exact B|]]. intros t'.
  destruct (Nat.eq_dec t' t) as [->|Hne]; [exact C | apply D; exact Hne].
Qed.
(* the shutdown attempt of close(): only the `shut` flag can change *)
Lemma shutdown_tr_cases s : (stalled s = true /\ shutdown_tr s = s) \/ (stalled s = false /\ shutdown_tr s = set_shut s).
Proof. unfold shutdown_tr. destruct (stalled s); [left | right]; split; reflexivity. Qed.
Lemma quiet_shutdown_tr s : quiet s (shutdown_tr s).
Proof. destruct (shutdown_tr_cases s) as [[_ ->]|[_ ->]]; apply quiet_eq; reflexivity. Qed.
Lemma quiet_set_task_samepc s t v : t_pc v = pcof s t -> quiet s (set_task s t v).
Proof. intros H. apply (pcu_quiet _ _ t). rewrite <- H. apply pcu_set_task. Qed.
Lemma quiet_with_prog s t rest : quiet s (set_task s t (with_prog (tasks s t) rest)).
Proof. apply quiet_set_task_samepc. reflexivity. Qed.

(* neither the drain of close() nor the Alert handler's marking touches a pc *)
Lemma quiet_mark s : quiet s (mark_state s).
Proof. split; [reflexivity | split; [reflexivity | intros t; apply (sr_mark sr_pc)]]. Qed.
Lemma quiet_drain s : quiet s (drain_state s).
Proof. split; [reflexivity | split; [reflexivity | intros t'; apply (sr_drain sr_pc)]]. Qed.

Record Inv (s : state) : Prop := {
  inv_holder : forall t, holds_pc (pcof s t) = true <-> wr s = Some t;
  inv_wait : forall t, waits_pc (pcof s t) = true <-> In t (waiters s);
  inv_nodup : NoDup (waiters s);
  inv_free : wr s = None -> waiters s = []
}.

Theorem holder_unique s t1 t2 :
  Inv s -> holds_pc (pcof s t1) = true -> holds_pc (pcof s t2) = true -> t1 = t2.
Proof.
  intros HI H1 H2. apply (inv_holder s HI) in H1, H2. congruence.
Qed.

Lemma inv_init progs buf pend : Inv (init progs buf pend).
Proof.
  constructor; cbn.
  - intros t. unfold pcof. cbn. split; discriminate.
  - intros t. unfold pcof. cbn. split; [discriminate | intros []].
  - constructor.
  - reflexivity.
Qed.

Lemma inv_pc_update s s' t p :
  Inv s -> pc_update s s' t p -> holds_pc p = holds_pc (pcof s t) -> waits_pc p = waits_pc (pcof s t) -> Inv s'.
Proof.
  intros [Hh Hw Hn Hf] (Ewr & Ewt & Ept & Eo) H1 H2.
  constructor; rewrite ?Ewr, ?Ewt; auto; intros t'.
  - destruct (Nat.eq_dec t' t) as [->|Hne]; [rewrite Ept, H1 | rewrite Eo by exact Hne]; apply Hh.
  - destruct (Nat.eq_dec t' t) as [->|Hne]; [rewrite Ept, H2 | rewrite Eo by exact Hne]; apply Hw.
Qed.

Lemma inv_acquire s t p :
  Inv s -> neutral (pcof s t) = true -> wr s = None -> holds_pc p = true ->
  Inv (set_pc (set_lock s (Some t) (waiters s)) t p).
Proof.
  intros [Hh Hw Hn Hf] N Hfree Hp. apply neutral_split in N. destruct N as [N1 N2].
  assert (waits_pc p = false) as Wp by (destruct p; try discriminate; reflexivity).
  constructor; cbn [wr waiters set_pc set_task set_tasks set_lock].
  - intros t'. rewrite pcof_set_pc_lock. destruct (Nat.eqb_spec t' t) as [->|Hne]; [rewrite Hp; tauto|].
    rewrite Hh, Hfree. split; [discriminate | congruence].
  - intros t'. rewrite pcof_set_pc_lock. destruct (Nat.eqb_spec t' t) as [->|Hne]; [rewrite Wp, <- Hw, N2; tauto | apply Hw].
  - exact Hn.
  - discriminate.
Qed.

Lemma nodup_snoc (ws : list tid) t : NoDup ws -> ~ In t ws -> NoDup (ws ++ [t]).
Proof.
  intros Hn Hi. apply NoDup_rev in Hn. rewrite <- (rev_involutive (ws ++ [t])), rev_app_distr.
  apply NoDup_rev. constructor; [rewrite <- in_rev; exact Hi | exact Hn].
Qed.

Lemma inv_enqueue s t p :
  Inv s -> neutral (pcof s t) = true -> wr s <> None -> waits_pc p = true ->
  Inv (set_pc (set_lock s (wr s) (waiters s ++ [t])) t p).
Proof.
  intros [Hh Hw Hn Hf] N Hheld Hp. apply neutral_split in N. destruct N as [N1 N2].
  assert (holds_pc p = false) as Hhp by (destruct p; try discriminate; reflexivity).
  assert (~ In t (waiters s)) as Hnin by (rewrite <- Hw, N2; discriminate).
  constructor; cbn [wr waiters set_pc set_task set_tasks set_lock].
  - intros t'. rewrite pcof_set_pc_lock. destruct (Nat.eqb_spec t' t) as [->|Hne]; [rewrite Hhp, <- Hh, N1; tauto | apply Hh].
  - intros t'. rewrite pcof_set_pc_lock, in_app_iff. cbn [In].
    destruct (Nat.eqb_spec t' t) as [->|Hne]; [rewrite Hp; tauto|].
    rewrite Hw. split; [tauto | intros [H|[H|[]]]; [exact H | congruence]].
  - apply nodup_snoc; assumption.
  - contradiction.
Qed.

Definition leaving (s : state) (t : tid) (ws : list tid) : Prop :=
  NoDup ws /\ ~ In t ws /\
  (forall t', t' <> t -> (waits_pc (pcof s t') = true <-> In t' ws)) /\
  (forall t', t' <> t -> holds_pc (pcof s t') = false).

(* the state s2 after the hand-off by t: the invariant but for the pc of t, which its caller sets next *)
Record released (s0 s2 : state) (t : tid) : Prop := {
  rl_holder : forall t', t' <> t -> (holds_pc (pcof s2 t') = true <-> wr s2 = Some t');
  rl_wait : forall t', t' <> t -> (waits_pc (pcof s2 t') = true <-> In t' (waiters s2));
  rl_nodup : NoDup (waiters s2);
  rl_free : wr s2 = None -> waiters s2 = [];
  rl_not_holder : wr s2 <> Some t;
  rl_self : tasks s2 t = tasks s0 t;
  rl_not_waiting : ~ In t (waiters s2)
}.

(* shut down, or never going to be *)
Definition shutd (s : state) : bool := shut s || stalled s.

Lemma shutd_shutdown_tr s : shutd (shutdown_tr s) = true.
Proof. unfold shutd, shutdown_tr. destruct (stalled s) eqn:E; [rewrite E; apply orb_true_r | reflexivity]. Qed.
Lemma shutd_framed s s' : framed s s' -> shutd s = true -> shutd s' = true.
Proof.
  intros F H. unfold shutd in *. rewrite (fr_stalled F). apply orb_true_iff in H. apply orb_true_iff.
  destruct H as [H|H]; [left; apply (fr_shut F); exact H | right; exact H].
Qed.

(* what the hand-off does to the pc of a task other than the releasing one *)
Definition rel_effect (s s' : state) (w : tid) : Prop :=
  pcof s' w = pcof s w
  \/ (exists k f, pcof s w = PW2wait k f /\ pcof s' w = PW3 k f)
  \/ (exists a k, pcof s w = PC2wait a k /\ pcof s' w = PIdle /\ shutd s' = true).

(* By induction on the queue. `leaving` is what the invariant says of the tasks other than t once the lock is taken
   from t, with ws for the queue. A queued writer at the head ends the hand-off; a queued closer shuts down and
   passes the lock on at once, which leaves the condition in force for the rest of the queue. *)
Lemma release_ws_spec ws : forall s t,
  leaving s t ws -> released s (release_ws ws s) t /\ forall u, u <> t -> rel_effect s (release_ws ws s) u.
Proof.
  induction ws as [|w ws IH]; intros s t (Hnd & Hnin & Hw & Hh); cbn [release_ws].
  - split; [|intros u _; left; reflexivity].
    constructor; change (pcof (set_lock s None [])) with (pcof s); cbn [wr waiters tasks set_lock].
    + intros t' Hne. rewrite (Hh t' Hne). split; discriminate.
    + exact Hw.
    + constructor.
    + reflexivity.
    + discriminate.
    + reflexivity.
    + intros [].
  - assert (w <> t) as Hwt by (intros ->; apply Hnin; left; reflexivity).
    assert (waits_pc (pcof s w) = true) as Hww by (apply Hw; [exact Hwt | left; reflexivity]).
    inversion Hnd as [|? ? Hnw Hnd']; subst.
    (* what `leaving` says of t' with the head w taken off the queue *)
    assert (forall t', t' <> t -> t' <> w -> (waits_pc (pcof s t') = true <-> In t' ws)) as Hw'.
    { intros t' Hne Hne2. rewrite (Hw t' Hne). cbn [In]. split; [intros [->|H1]; [contradiction | exact H1] | auto]. }
    unfold pcof in Hww. destruct (t_pc (tasks s w)) eqn:Epc; try discriminate.
    + (* a queued writer obtains the lock *)
      pose proof (pcof_set_pc_lock s (Some w) ws w (PW3 k f)) as Hp.
      split.
      * constructor; cbn [wr waiters set_pc set_task set_tasks set_lock].
        -- intros t' Hne. rewrite Hp. destruct (Nat.eqb_spec t' w) as [->|Hne2]; [split; reflexivity|].
           rewrite (Hh t' Hne). split; [discriminate | congruence].
        -- intros t' Hne. rewrite Hp. destruct (Nat.eqb_spec t' w) as [->|Hne2]; [|exact (Hw' t' Hne Hne2)].
           split; [discriminate | contradiction].
        -- exact Hnd'.
        -- discriminate.
        -- congruence.
        -- apply upd_other. congruence.
        -- intros H1. apply Hnin. right. exact H1.
      * intros u _. unfold rel_effect. rewrite Hp. destruct (Nat.eqb_spec u w) as [->|_]; [|left; reflexivity].
        right; left. exists k, f. split; [exact Epc | reflexivity].
    + (* a queued closer obtains the lock, shuts down, releases again *)
      set (s1 := finish_close (shutdown_tr s) w a k).
      assert (forall t', pcof s1 t' = if Nat.eqb t' w then PIdle else pcof s t') as Hp.
      { intros t'. pose proof (pcu_finish_close (shutdown_tr s) w a k) as U.
        destruct (Nat.eqb_spec t' w) as [->|Hne]; [exact (pcu_pc _ _ _ _ U)|].
        rewrite <- (quiet_pcof (quiet_shutdown_tr s) t'). exact (pcu_other U t' Hne). }
      assert (leaving s1 t ws) as L1.
      { split; [exact Hnd' | split; [intros H1; apply Hnin; right; exact H1 | split]]; intros t' Hne; rewrite Hp;
          destruct (Nat.eqb_spec t' w) as [->|Hne2].
        - split; [discriminate | contradiction].
        - exact (Hw' t' Hne Hne2).
        - reflexivity.
        - apply Hh. exact Hne. }
      destruct (IH s1 t L1) as [R O].
      split.
      * destruct R as [R1 R2 R3 R4 R5 R6 R7]. constructor; try assumption.
        rewrite R6. unfold s1. rewrite tasks_finish_close_other by congruence. rewrite tasks_shutdown_tr. reflexivity.
      * intros u Hu. specialize (O u Hu). unfold rel_effect in *. rewrite Hp in O. revert O.
        destruct (Nat.eqb_spec u w) as [->|_]; intros O; [|exact O].
        right; right. exists a, k. split; [exact Epc|].
        split; [destruct O as [O|[(? & ? & O & _)|(? & ? & O & _)]]; [exact O | discriminate | discriminate]|].
        apply (shutd_framed (shutdown_tr s)); [|apply shutd_shutdown_tr].
        eapply framed_trans; [apply framed_finish_close | apply framed_release_ws].
Qed.

Lemma leaving_of_inv s t :
  Inv s -> wr s = Some t -> leaving s t (waiters s).
Proof.
  intros [Hh Hw Hn Hf] E. unfold leaving. split; [exact Hn | split; [|split]].
  - intros H. apply Hw in H. assert (holds_pc (pcof s t) = true) as H2 by (apply Hh; exact E).
    destruct (pcof s t); discriminate.
  - intros t' _. apply Hw.
  - intros t' Hne. destruct (holds_pc (pcof s t')) eqn:E2; [|reflexivity].
    apply Hh in E2. congruence.
Qed.

(* the holder ends its write: the wire is set, then the lock handed on *)
Lemma release_write s t n w :
  Inv s -> holds_pc (pcof s t) = true ->
  released s (release (set_wire s n w)) t /\ forall u, u <> t -> rel_effect s (release (set_wire s n w)) u.
Proof.
  intros HI Hh. apply (inv_holder s HI) in Hh.
  destruct (release_ws_spec (waiters s) (set_wire s n w) t (leaving_of_inv s t HI Hh)) as [R O].
  split; [|exact O]. destruct R. constructor; assumption.
Qed.

Lemma inv_after_release s0 s2 s3 t p :
  released s0 s2 t -> pc_update s2 s3 t p -> neutral p = true -> Inv s3.
Proof.
  intros [R1 R2 R3 R4 R5 R6 R7] (Ewr & Ewt & Ept & Eo) N.
  apply neutral_split in N. destruct N as [N1 N2].
  constructor; rewrite ?Ewr, ?Ewt; auto; intros t';
    (destruct (Nat.eq_dec t' t) as [->|Hne]; [rewrite Ept | rewrite Eo by exact Hne]).
  - rewrite N1. split; [discriminate | contradiction].
  - apply R1. exact Hne.
  - rewrite N2. split; [discriminate | contradiction].
  - apply R2. exact Hne.
Qed.

(* The moves of a task, as pc and program before and after. At PIdle it takes the next call off its program and
   enters that call's first pc, or returns at once; anywhere else it goes on within the call and the program stays. *)
Inductive move (s : state) (t : tid) : pc -> list call -> pc -> list call -> Prop :=
| M_write f r : move s t PIdle (CWrite f :: r) (PW0 WkPlain f) r
| M_data d sid r : move s t PIdle (CData d :: r) (PW0 WkPlain (psh_frame sid d)) r
| M_open r : closed s = false -> move s t PIdle (COpen :: r) PO0 r
| M_close r : closed s = false -> move s t PIdle (CClose :: r) (PC1 AfterClose WkPlain) r
| M_park r : pump_owner s = Some t -> dq s = [] -> move s t PIdle (CPump :: r) PPwait r
| M_pop f r : closed s = false -> move s t PIdle (CPump :: r) (PW0 WkPump f) r
| M_return c r : match c with CWrite _ => False | COpen | CClose => closed s = true | _ => True end ->
    move s t PIdle (c :: r) PIdle r
| M_w0_closed k f p : closed s = true -> move s t (PW0 k f) p PIdle p
| M_w0_buffer k f p : closed s = false -> move s t (PW0 k f) p (PW1 k f) p
| M_w0_lock k f p : closed s = false -> move s t (PW0 k f) p (PW2 k f) p
| M_w1 k f p : move s t (PW1 k f) p PIdle p
| M_w2_free k f p : wr s = None -> move s t (PW2 k f) p (PW3 k f) p
| M_w2_held k f p : wr s <> None -> move s t (PW2 k f) p (PW2wait k f) p
| M_w3 k f h p : move s t (PW3 k f) p (PW4 k h) p
| M_w4_ok k h p : move s t (PW4 k h) p PIdle p
| M_w4_err k h p : move s t (PW4 k h) p (PE0 AfterIoErr k) p
| M_e0_closed a k p : closed s = true -> move s t (PE0 a k) p PIdle p
| M_e0 a k p : closed s = false -> move s t (PE0 a k) p (PC1 a k) p
| M_c1 a k p : move s t (PC1 a k) p (PC2 a k) p
| M_c2_free a k p : wr s = None -> move s t (PC2 a k) p PIdle p
| M_c2_held a k p : wr s <> None -> move s t (PC2 a k) p (PC2wait a k) p
| M_o0 p : move s t PO0 p (PO0b (next_sid s)) p
| M_o0b i p : move s t (PO0b i) p (PO1 i) p
| M_o1 i p : move s t (PO1 i) p (PW0 WkOpen (syn_frame i)) p.

(* its stream handle is allocated at PO0 only *)
Definition stream_ok (s : state) (t : tid) (v : task) : Prop :=
  match pcof s t with
  | PO0 => t_sid v = Some (next_sid s)
  | _ => stream_kept (tasks s t) v
  end.

(* the frame whose submission the move from p to q records in t_sub: on entering write_frame from a call or from
   open_stream, and, for a frame the forwarding task took from the channel, on passing write_frame's closed check *)
Definition submitted (p q : pc) : list frame :=
  match q, p with
  | PW0 WkPlain f, PIdle | PW0 WkOpen f, PO1 _ => [f]
  | PW1 _ _, PW0 WkPump f | PW2 _ _, PW0 WkPump f => [f]
  | _, _ => []
  end.

Definition plain_pc (p : pc) : bool := match p with PIdle | PW0 _ _ | PC2 _ _ | PO1 _ => true | _ => false end.

(* what a step that stays clear of the lock and of other tasks does to the global fields; a call that sets a field
   returns at once, except that the forwarding task keeps the frame it takes off the channel of an open session, and
   no other call hands its task a frame of the channel *)
Inductive local_eff (s : state) (t : tid) (s' : state) : Prop :=
| LE_none : plain_pc (pcof s t) = true -> (forall f, pcof s t = PIdle -> pcof s' t <> PW0 WkPump f) -> framed s s' ->
    local_eff s t s'
| LE_flags b fl : pcof s t = PIdle -> pcof s' t = PIdle -> (failing s = true -> fl = true) ->
    framed (set_flags s b (closed s) (shut s) fl (ralive s)) s' -> local_eff s t s'
| LE_stall : pcof s t = PIdle -> pcof s' t = PIdle -> framed (set_stalled s) s' -> local_eff s t s'
| LE_take : pcof s t = PIdle -> pcof s' t = PIdle -> (exists rest, t_prog (tasks s t) = CPump :: rest) ->
    pump_owner s = None -> framed (set_pump s (dq s) (pushed s) (Some t) (pump_done s)) s' -> local_eff s t s'
| LE_pop u f q : pcof s t = PIdle -> (closed s = false -> pcof s' t = PW0 WkPump f) ->
    (exists rest, t_prog (tasks s t) = CPump :: rest) -> pump_owner s = Some t -> dq s = (u, f) :: q ->
    framed (set_dq s q) s' -> local_eff s t s'
| LE_queue k f : pcof s t = PW1 k f ->
    framed (set_queue s (pending s ++ [(t, f)]) (lin s ++ [(t, f)])) s' -> local_eff s t s'
| LE_first : pcof s t = PO0 -> framed (set_rtable s (next_sid s + 1) (rtable s ++ [(next_sid s, t)])) s' ->
    local_eff s t s'
| LE_second sid : pcof s t = PO0b sid -> framed (set_table s (next_sid s) (table s ++ [(sid, t)])) s' ->
    local_eff s t s'.

(* the call just started is taken off the program before its body runs *)
Definition popped (s : state) (t : tid) (rest : list call) : state := set_task s t (with_prog (tasks s t) rest).
Lemma popped_other s t rest u : u <> t -> tasks (popped s t rest) u = tasks s u.
Proof. apply upd_other. Qed.
Lemma popped_pc s t rest u : pcof (popped s t rest) u = pcof s u.
Proof. exact (quiet_pcof (quiet_with_prog s t rest) u). Qed.
Lemma popped_prog s t rest : t_prog (tasks (popped s t rest) t) = rest.
Proof. unfold popped. cbn. rewrite upd_same. reflexivity. Qed.

(* the state in which the head of close() runs: entered by a CClose call, or from PE0 after a transport error *)
Definition begun (s : state) (t : tid) (a : after) (k : wk) (s1 : state) : Prop :=
  (pcof s t = PE0 a k /\ s1 = s) \/
  (pcof s t = PIdle /\ a = AfterClose /\ k = WkPlain /\ exists rest, t_prog (tasks s t) = CClose :: rest /\ s1 = popped s t rest).

Lemma begun_neutral s t a k s1 : begun s t a k s1 -> neutral (pcof s t) = true.
Proof. intros [[-> _]|[-> _]]; reflexivity. Qed.
Lemma begun_quiet s t a k s1 : begun s t a k s1 -> quiet s s1.
Proof. intros [[_ ->]|(_ & _ & _ & rest & _ & ->)]; [apply quiet_refl | apply quiet_with_prog]. Qed.
Lemma begun_framed s t a k s1 : begun s t a k s1 -> framed s s1.
Proof. intros [[_ ->]|(_ & _ & _ & rest & _ & ->)]; [apply framed_refl | apply framed_set_tasks]. Qed.

Definition queued (p q : pc) : Prop :=
  match p with PW2 k f => q = PW2wait k f | PC2 a k => q = PC2wait a k | _ => False end.
Lemma queued_pcs p q : queued p q -> neutral p = true /\ waits_pc q = true.
Proof. destruct p; cbn; try contradiction; intros ->; split; reflexivity. Qed.

Definition touches_only (s s' : state) (t : tid) : Prop :=
  wr s' = wr s /\ waiters s' = waiters s /\ forall u, u <> t -> tasks s' u = tasks s u.
Lemma touches_other {s s' t} : touches_only s s' t -> forall u, u <> t -> tasks s' u = tasks s u.
Proof. intros (_ & _ & E). exact E. Qed.

(* the classes of steps that leave lock and queue alone, and start and end at a neutral pc *)
Inductive off_shape (s : state) (t : tid) (s' : state) : Prop :=
| SS_local : touches_only s s' t -> neutral (pcof s t) = true -> neutral (pcof s' t) = true ->
    move s t (pcof s t) (t_prog (tasks s t)) (pcof s' t) (t_prog (tasks s' t)) -> stream_ok s t (tasks s' t) ->
    t_sub (tasks s' t) = t_sub (tasks s t) ++ submitted (pcof s t) (pcof s' t) -> local_eff s t s' -> off_shape s t s'
| SS_close s1 a k : begun s t a k s1 -> s' = enter_close s1 t a k -> off_shape s t s'
| SS_feed ev rest : pcof s t = PIdle -> t_prog (tasks s t) = CFeed ev :: rest -> t <> rtid ->
    s' = finish (feed_ev (popped s t rest) ev) t ResOk -> off_shape s t s'
| SS_push d sid rest : pcof s t = PIdle -> t_prog (tasks s t) = CSend d :: rest -> t_sid (tasks s t) = Some sid ->
    s' = finish (push_item (popped s t rest) t (psh_frame sid d)) t ResOk -> off_shape s t s'
| SS_drain a k : pcof s t = PC1 a k -> s' = set_pc (drain_state (wake_pump_closed s)) t (PC2 a k) -> off_shape s t s'.

Inductive step_shape (s : state) (t : tid) (s' : state) : Prop :=
| SS_off : off_shape s t s' -> step_shape s t s'
| SS_acquire k f : pcof s t = PW2 k f -> wr s = None ->
    s' = set_pc (set_lock s (Some t) (waiters s)) t (PW3 k f) -> step_shape s t s'
| SS_enqueue q : queued (pcof s t) q -> wr s <> None ->
    s' = set_pc (set_lock s (wr s) (waiters s ++ [t])) t q -> step_shape s t s'
| SS_take k f : pcof s t = PW3 k f ->
    s' = set_pc (set_queue s [] (lin s ++ [(t, f)])) t (PW4 k (pending s ++ [(t, f)])) -> step_shape s t s'
| SS_write_fail k held : pcof s t = PW4 k held -> stalled s && negb (shut s) = false -> failing s || shut s = true ->
    s' = set_pc (release (set_wire s (pkt s + 1)%N (wire s))) t (PE0 AfterIoErr k) -> step_shape s t s'
| SS_write_ok k held : pcof s t = PW4 k held -> stalled s && negb (shut s) = false -> failing s || shut s = false ->
    s' = finish_w (release (set_wire s (pkt s + 1)%N (wire s ++ [((pkt s + 1)%N, held)]))) t k ResOk ->
    step_shape s t s'.

(* What a step of t that stays clear of the lock does to another task w, beside nothing: a CFeed call that delivers
   EOF, an error or an Alert sets the idle receive task going; a push, or the close notification once the flag is
   set, takes the forwarding task out of recv(). *)
Definition kick_target (q : pc) : Prop := q = PC1 AfterRecv WkPlain \/ q = PE0 AfterRecv WkPlain.
Definition pump_target (q : pc) : Prop := q = PIdle \/ exists f, q = PW0 WkPump f.
Definition feeds (s : state) (t : tid) : Prop :=
  pcof s t = PIdle /\ exists ev rest, t_prog (tasks s t) = CFeed ev :: rest.
Definition wakes (s : state) (t : tid) : Prop :=
  (closed s = true /\ exists a k, pcof s t = PC1 a k) \/
  (pcof s t = PIdle /\ exists d rest, t_prog (tasks s t) = CSend d :: rest).
Definition moved (s : state) (t w : tid) (q : pc) : Prop :=
  (w = rtid /\ pcof s w = PIdle /\ feeds s t /\ kick_target q) \/
  (pcof s w = PPwait /\ (pump_owner s = Some w /\ wakes s t) /\ pump_target q).

Record off_lock (s : state) (t : tid) (s' : state) : Prop := {
  ol_wr : wr s' = wr s;
  ol_waiters : waiters s' = waiters s;
  ol_from : neutral (pcof s t) = true;
  ol_to : neutral (pcof s' t) = true;
  ol_others : forall w, w <> t -> pcof s' w = pcof s w \/ moved s t w (pcof s' w)
}.

Lemma moved_neutral s t w q : moved s t w q -> neutral (pcof s w) = true /\ neutral q = true.
Proof. intros [(_ & -> & _ & [->| ->])|(-> & _ & [->|[f ->]])]; split; reflexivity. Qed.

(* no task changes its role: the stepper and a task it sets going are neutral before and after *)
Lemma inv_off_lock s t s' : Inv s -> off_lock s t s' -> Inv s'.
Proof.
  intros [Hh Hw Hn Hf] [Ewr Ewt N N' O].
  assert (forall p q, neutral p = true -> neutral q = true -> holds_pc q = holds_pc p /\ waits_pc q = waits_pc p) as Nn.
  { intros p q A B. apply neutral_split in A, B. destruct A as [A1 A2], B as [B1 B2]. split; congruence. }
  assert (forall u, holds_pc (pcof s' u) = holds_pc (pcof s u) /\ waits_pc (pcof s' u) = waits_pc (pcof s u)) as R.
  { intros u. destruct (Nat.eq_dec u t) as [->|Hu]; [apply Nn; assumption|].
    destruct (O u Hu) as [E|M]; [rewrite E; split; reflexivity | apply Nn; apply (moved_neutral s t u _ M)]. }
  constructor; rewrite ?Ewr, ?Ewt; auto; intros u; destruct (R u) as [R1 R2].
  - rewrite R1. apply Hh.
  - rewrite R2. apply Hw.
Qed.

(* t takes a call off its program or not (s0), one operation moves at most one other task (s1), t's pc is set *)
Lemma off_lock_of s s0 s1 s' t p :
  quiet s s0 -> (quiet s0 s1 \/ exists w q, pc_update s0 s1 w q /\ moved s t w q) -> pc_update s1 s' t p ->
  neutral (pcof s t) = true -> neutral p = true -> off_lock s t s'.
Proof.
  intros (A1 & A2 & A3) M (B1 & B2 & B3 & B4) N Np.
  destruct M as [(C1 & C2 & C3)|(w & q & (C1 & C2 & C3 & C4) & Mv)];
    (constructor; [congruence | congruence | exact N | rewrite B3; exact Np|]); intros u Hu; rewrite B4 by exact Hu.
  - left. rewrite C3. apply A3.
  - destruct (Nat.eq_dec u w) as [->|Huw]; [right; rewrite C3; exact Mv | left; rewrite C4 by exact Huw; apply A3].
Qed.

Lemma quiet_feed_nonclosing s ev :
  (match ev with InAlert | InEof | InErr => False | _ => True end) -> quiet s (feed_ev s ev).
Proof.
  intros Hev. unfold feed_ev. destruct (negb (ralive s)); [apply quiet_refl|].
  destruct ev; try contradiction.
  - destruct (lookup_owner (table s) owner); [|apply quiet_refl].
    destruct (t_verdict (tasks s owner)); [apply quiet_refl | apply quiet_set_task_samepc; reflexivity].
  - destruct (lookup_owner (rtable s) owner); [apply quiet_set_task_samepc; reflexivity | apply quiet_refl].
  - destruct (lookup_owner (rtable s) owner); [|apply quiet_eq; reflexivity].
    apply (pcu_quiet _ _ owner). eapply (pcu_of_tasks _ _ _ (with_rq _ _ _)); reflexivity.
Qed.

Lemma ppwait_pc s p : is_ppwait (t_pc (tasks s p)) = true -> pcof s p = PPwait.
Proof. unfold pcof. destruct (t_pc (tasks s p)); try discriminate. reflexivity. Qed.

(* In feed_moves and push_moves the operation runs in a state s0 that has the pcs and the channel owner of s, the state
   in which t took its step: s itself, or s with the call taken off the program of t. *)
Lemma feed_moves s t s0 ev :
  feeds s t -> pcof s0 rtid = pcof s rtid ->
  quiet s0 (feed_ev s0 ev) \/ exists w q, pc_update s0 (feed_ev s0 ev) w q /\ moved s t w q.
Proof.
  intros F Hr.
  assert (forall q, pcof s0 rtid = PIdle -> kick_target q -> pc_update s0 (feed_ev s0 ev) rtid q ->
          exists w q, pc_update s0 (feed_ev s0 ev) w q /\ moved s t w q) as Kick.
  { intros q Ei K U. exists rtid, q. split; [exact U | left]. rewrite Hr in Ei.
    split; [reflexivity | split; [exact Ei | split; [exact F | exact K]]]. }
  destruct ev; try (left; apply quiet_feed_nonclosing; exact I);
    unfold feed_ev in *; destruct (negb (ralive s0)); try (left; apply quiet_refl);
    destruct (pc_is_idle (t_pc (tasks s0 rtid))) eqn:E; try (left; apply quiet_refl);
    assert (pcof s0 rtid = PIdle) as Ei by (unfold pcof; destruct (t_pc (tasks s0 rtid)); try discriminate; reflexivity).
  - pose proof (quiet_pcu _ _ _ _ _ (quiet_mark s0) (pcu_enter_close (mark_state s0) rtid AfterRecv WkPlain)) as U.
    change (closed (mark_state s0)) with (closed s0) in U. destruct (closed s0).
    + left. apply (pcu_quiet _ _ rtid). rewrite Ei. exact U.
    + right. apply (Kick (PC1 AfterRecv WkPlain) Ei); [left; reflexivity | exact U].
  - pose proof (pcu_enter_close s0 rtid AfterRecv WkPlain) as U. destruct (closed s0).
    + left. apply (pcu_quiet _ _ rtid). rewrite Ei. exact U.
    + right. apply (Kick (PC1 AfterRecv WkPlain) Ei); [left; reflexivity | exact U].
  - right. apply (Kick (PE0 AfterRecv WkPlain) Ei); [right; reflexivity | apply pcu_set_pc].
Qed.

Lemma wake_moves s t a k :
  pcof s t = PC1 a k ->
  quiet s (wake_pump_closed s) \/ exists w q, pc_update s (wake_pump_closed s) w q /\ moved s t w q.
Proof.
  intros P. unfold wake_pump_closed. destruct (closed s) eqn:C; [|left; apply quiet_refl].
  destruct (pump_owner s) as [p|] eqn:Eo; [|left; apply quiet_refl].
  destruct (is_ppwait (t_pc (tasks s p))) eqn:E; [|left; apply quiet_refl].
  right. exists p, PIdle. split; [eapply (pcu_of_tasks _ _ _ (with_res _ _)); reflexivity | right].
  split; [apply ppwait_pc; exact E | split; [split; [exact Eo | left; eauto] | left; reflexivity]].
Qed.

Lemma push_moves s t s0 f :
  wakes s t -> pump_owner s0 = pump_owner s -> (forall u, pcof s0 u = pcof s u) ->
  quiet s0 (push_item s0 t f) \/ exists w q, pc_update s0 (push_item s0 t f) w q /\ moved s t w q.
Proof.
  intros W Ho Hp. unfold push_item.
  destruct (pump_owner s0) as [p|] eqn:Eo; [|left; apply quiet_eq; reflexivity].
  destruct (is_ppwait (t_pc (tasks s0 p))) eqn:E; [|left; apply quiet_eq; reflexivity].
  apply ppwait_pc in E. rewrite Hp in E.
  assert (forall q, pump_target q -> moved s t p q) as Mv.
  { intros q K. right. split; [exact E | split; [split; [symmetry; exact Ho | exact W] | exact K]]. }
  right. exists p. destruct (closed s0).
  - exists PIdle. split; [eapply (pcu_of_tasks _ _ _ (with_res _ _)); reflexivity | apply Mv; left; reflexivity].
  - exists (PW0 WkPump f). split; [eapply (pcu_of_tasks _ _ _ (with_pc _ _)); reflexivity | apply Mv; right; exists f; reflexivity].
Qed.

Lemma off_shape_lock s t s' : off_shape s t s' -> off_lock s t s'.
Proof.
  intros [T N N' _ _ _ _|s1 a k B ->|ev rest P E _ ->|d sid rest P E _ ->|a k P ->].
  - constructor; [apply T | apply T | exact N | exact N'|].
    intros w Hw. left. unfold pcof. rewrite (touches_other T w Hw). reflexivity.
  - apply (off_lock_of s s1 s1 _ t _ (begun_quiet s t a k s1 B) (or_introl (quiet_refl s1)) (pcu_enter_close s1 t a k)
             (begun_neutral s t a k s1 B)).
    destruct (closed s1); reflexivity.
  - apply (off_lock_of s (popped s t rest) (feed_ev (popped s t rest) ev) _ t PIdle (quiet_with_prog s t rest));
      [|apply pcu_finish | rewrite P; reflexivity | reflexivity].
    apply (feed_moves s t); [split; [exact P | exists ev, rest; exact E] | apply popped_pc].
  - apply (off_lock_of s (popped s t rest) (push_item (popped s t rest) t (psh_frame sid d)) _ t PIdle (quiet_with_prog s t rest));
      [|apply pcu_finish | rewrite P; reflexivity | reflexivity].
    apply (push_moves s t); [right; split; [exact P | exists d, rest; exact E] | reflexivity | apply popped_pc].
  - apply (off_lock_of s s (wake_pump_closed s) _ t (PC2 a k) (quiet_refl s));
      [|eapply quiet_pcu; [apply quiet_drain | apply pcu_set_pc] | rewrite P; reflexivity | reflexivity].
    exact (wake_moves s t a k P).
Qed.

(* A leaf of `step` whose result is built from setters on s and on the record of t is of class SS_local, and every
   clause of SS_local but the last is closed by computing the record of t in the result. `called Epc Eprog` does that
   at PIdle, from the equations for the pc and the program of t, and leaves the effect on the global fields;
   `local Epc` does it at another pc, where the program is not looked at; `plain Epc` closes the last clause where
   the global fields stay. *)
Local Ltac called Epc Eprog :=
  eapply SS_off, SS_local; unfold stream_ok, pcof; rewrite ?Epc, ?Eprog; cbn; rewrite ?upd_same; cbn;
  [ split; [reflexivity | split; [reflexivity | let Hu := fresh in intros ? Hu; cbn; rewrite ?upd_other by exact Hu; reflexivity]]
  | reflexivity
  | reflexivity
  | constructor; first [assumption | exact I]
  | first [reflexivity | split; cbn; auto]
  | rewrite ?app_nil_r; reflexivity
  | ].
Local Ltac local Epc := called Epc Epc.
Local Ltac plain Epc :=
  apply LE_none; [unfold pcof; rewrite Epc; reflexivity | intros ? _; unfold pcof; cbn; rewrite ?upd_same; discriminate | fields].

Lemma step_shaped s t : match step s t with Some s' => step_shape s t s' | None => True end.
Proof.
  unfold step. destruct (t_pc (tasks s t)) eqn:Epc; try exact I.
  - (* PIdle *)
    destruct (t_prog (tasks s t)) as [|c rest] eqn:Eprog; [exact I|].
    unfold start_call. cbn [t_sid t_verdict t_rq t_rclosed t_sclosed with_prog].
    destruct c.
    + called Epc Eprog. plain Epc.
    + destruct (t_sid (tasks s t)); called Epc Eprog; plain Epc.
    + destruct (closed s) eqn:Ec; called Epc Eprog; plain Epc.
    + destruct (t_sid (tasks s t)); [destruct (t_verdict (tasks s t)); [|exact I]|]; called Epc Eprog; plain Epc.
    + destruct (t_sid (tasks s t)); [destruct (t_verdict (tasks s t))|]; called Epc Eprog; plain Epc.
    + destruct (t_sid (tasks s t)); [destruct (t_rq (tasks s t)); [destruct (t_rclosed (tasks s t)); [|exact I]|]|];
        called Epc Eprog; plain Epc.
    + apply SS_off, (SS_close s t _ (popped s t rest) AfterClose WkPlain); [|reflexivity].
      right. split; [exact Epc | split; [reflexivity | split; [reflexivity | exists rest; split; [exact Eprog | reflexivity]]]].
    + called Epc Eprog. apply (LE_flags s t _ false (failing s)); [exact Epc | apply pcof_set_task_same | auto | fields].
    + called Epc Eprog. apply (LE_flags s t _ true (failing s)); [exact Epc | apply pcof_set_task_same | auto | fields].
    + called Epc Eprog. apply (LE_flags s t _ (buffering s) true); [exact Epc | apply pcof_set_task_same | auto | fields].
    + called Epc Eprog. apply LE_stall; [exact Epc | apply pcof_set_task_same | fields].
    + destruct (Nat.eqb_spec t rtid) as [E|E].
      * called Epc Eprog. plain Epc.
      * apply SS_off, (SS_feed s t _ ev rest); [exact Epc | exact Eprog | exact E | reflexivity].
    + destruct (t_sid (tasks s t)) as [sid|] eqn:Es; [destruct (t_sclosed (tasks s t) || pump_done s)|].
      * called Epc Eprog. plain Epc.
      * apply SS_off, (SS_push s t _ payload sid rest); [exact Epc | exact Eprog | exact Es | reflexivity].
      * called Epc Eprog. plain Epc.
    + destruct (pump_owner s) as [p|] eqn:Eo.
      * destruct (Nat.eqb_spec p t) as [->|Ep]; cbn [negb]; [|called Epc Eprog; plain Epc].
        destruct (pump_done s); [called Epc Eprog; plain Epc|].
        destruct (dq s) as [|[u f] q] eqn:Eq; [called Epc Eprog; plain Epc|].
        destruct (closed s) eqn:Ec; called Epc Eprog;
          (apply (LE_pop s t _ u f q); [exact Epc | intros; first [congruence | apply pcof_set_task_same] | exists rest; exact Eprog | exact Eo | exact Eq | fields]).
      * called Epc Eprog. apply LE_take; [exact Epc | apply pcof_set_task_same | exists rest; exact Eprog | exact Eo | fields].
  - (* PW0 *)
    destruct (closed s) eqn:Ec; [|destruct (buffering s)]; destruct k; local Epc; plain Epc.
  - (* PW1 *)
    destruct k; local Epc; (eapply LE_queue; [exact Epc | fields]).
  - (* PW2 *)
    destruct (wr s) eqn:Ewr.
    + apply (SS_enqueue s t _ (PW2wait k f)); [unfold pcof; rewrite Epc; reflexivity | congruence | rewrite Ewr; reflexivity].
    + apply (SS_acquire s t _ k f); [exact Epc | exact Ewr | reflexivity].
  - (* PW3 *)
    apply (SS_take s t _ k f); [exact Epc | reflexivity].
  - (* PW4 *)
    destruct (stalled s && negb (shut s)) eqn:Est; [exact I|].
    destruct (failing s || shut s) eqn:Efl.
    + apply (SS_write_fail s t _ k held); [exact Epc | exact Est | exact Efl | reflexivity].
    + apply (SS_write_ok s t _ k held); [exact Epc | exact Est | exact Efl | reflexivity].
  - (* PE0 *)
    apply SS_off, (SS_close s t _ s a k); [left; split; [exact Epc | reflexivity] | reflexivity].
  - (* PC1 *)
    apply SS_off, (SS_drain s t _ a k); [exact Epc | reflexivity].
  - (* PC2 *)
    destruct (wr s) eqn:Ewr.
    + apply (SS_enqueue s t _ (PC2wait a k)); [unfold pcof; rewrite Epc; reflexivity | congruence | rewrite Ewr; reflexivity].
    + destruct (pcu_finish_close (shutdown_tr s) t a k) as (A & B & C & _).
      apply SS_off, SS_local.
      * split; [rewrite A; apply quiet_shutdown_tr | split; [rewrite B; apply quiet_shutdown_tr|]].
        intros u Hu. rewrite tasks_finish_close_other by exact Hu. rewrite tasks_shutdown_tr. reflexivity.
      * unfold pcof. rewrite Epc. reflexivity.
      * rewrite C. reflexivity.
      * rewrite C, (tr_finish_close tr_prog), tasks_shutdown_tr. unfold pcof. rewrite Epc. apply M_c2_free. exact Ewr.
      * unfold stream_ok, pcof. rewrite Epc, <- (tasks_shutdown_tr s). apply (tr_finish_close tr_stream_kept).
      * rewrite C, (tr_finish_close tr_sub), tasks_shutdown_tr. symmetry. apply app_nil_r.
      * apply LE_none; [unfold pcof; rewrite Epc; reflexivity | rewrite C; discriminate|].
        eapply framed_trans; [apply framed_shutdown_tr | apply framed_finish_close].
  - (* PO0 *)
    local Epc. apply LE_first; [exact Epc | fields].
  - (* PO0b *)
    local Epc. apply (LE_second s t _ sid); [exact Epc | fields].
  - (* PO1 *)
    local Epc. plain Epc.
Qed.

Theorem step_shape_of s t s' : step s t = Some s' -> step_shape s t s'.
Proof. intros H. pose proof (step_shaped s t) as M. rewrite H in M. exact M. Qed.

Theorem step_inv s t s' : Inv s -> step s t = Some s' -> Inv s'.
Proof.
  intros HI H.
  destruct (step_shape_of s t s' H) as [Sh|k f P W ->|q Q W ->|k f P ->|k held P _ _ ->|k held P _ _ ->].
  - exact (inv_off_lock s t s' HI (off_shape_lock s t s' Sh)).
  - apply inv_acquire; [exact HI | rewrite P; reflexivity | exact W | reflexivity].
  - apply queued_pcs in Q. apply inv_enqueue; [exact HI | apply Q | exact W | apply Q].
  - apply (inv_pc_update s _ t (PW4 k (pending s ++ [(t, f)])) HI); [|rewrite P; reflexivity | rewrite P; reflexivity].
    exact (pcu_set_pc (set_queue s [] (lin s ++ [(t, f)])) t _).
  - destruct (release_write s t (pkt s + 1)%N (wire s) HI) as [R _]; [rewrite P; reflexivity|].
    exact (inv_after_release _ _ _ t (PE0 AfterIoErr k) R (pcu_set_pc _ t _) eq_refl).
  - destruct (release_write s t (pkt s + 1)%N (wire s ++ [((pkt s + 1)%N, held)]) HI) as [R _]; [rewrite P; reflexivity|].
    exact (inv_after_release _ _ _ t PIdle R (pcu_finish_w _ t k ResOk) eq_refl).
Qed.

(* A step that goes through a compound operation leaves every task's record related to the old one by any task_rel,
   that of the stepper too if the relation lets a program lose its head; it neither starts at PO0 nor submits. *)
Lemma shape_rel R (HR : task_rel R) s t s' u :
  step_shape s t s' -> u <> t \/ (forall x rest, R x (with_prog x rest)) ->
  (touches_only s s' t /\ stream_ok s t (tasks s' t) /\
   t_sub (tasks s' t) = t_sub (tasks s t) ++ submitted (pcof s t) (pcof s' t)) \/
  (pcof s t <> PO0 /\ submitted (pcof s t) (pcof s' t) = [] /\ R (tasks s u) (tasks s' u)).
Proof.
  intros Sh Hu.
  assert (forall rest, R (tasks s u) (tasks (popped s t rest) u)) as Pop.
  { intros rest. destruct Hu as [Hu|Hp]; [rewrite (popped_other s t rest u Hu); apply (tr_refl HR) | apply (tr_set_task HR), Hp]. }
  destruct Sh as [[T _ _ _ N Sb _|s1 a k B ->|ev rest P _ _ ->|d sid rest P _ _ ->|a k P ->]
                  |k f P _ ->|q Q _ ->|k f P ->|k held P _ _ ->|k held P _ _ ->]; [left; auto | right ..].
  - split; [destruct B as [[-> _]|[-> _]]; discriminate|].
    split; [rewrite pcof_enter_close; destruct (closed s1); reflexivity|].
    eapply (tr_trans HR); [|apply (tr_enter_close HR)].
    destruct B as [[_ ->]|(_ & _ & _ & rest & _ & ->)]; [apply (tr_refl HR) | apply Pop].
  - split; [rewrite P; discriminate | split; [rewrite pcof_finish; reflexivity|]].
    eapply (tr_trans HR); [apply (Pop rest)|]. eapply (tr_trans HR); [apply (tr_feed HR) | apply (tr_finish HR)].
  - split; [rewrite P; discriminate | split; [rewrite pcof_finish; reflexivity|]].
    eapply (tr_trans HR); [apply (Pop rest)|]. eapply (tr_trans HR); [apply (tr_push HR) | apply (tr_finish HR)].
  - split; [rewrite P; discriminate | split; [rewrite pcof_set_pc; reflexivity|]].
    eapply (tr_trans HR); [apply (tr_wake HR s u)|]. eapply (tr_trans HR); [|apply (tr_set_pc HR)].
    exact (tr_drain HR (table (wake_pump_closed s)) (tasks (wake_pump_closed s)) u).
  - split; [rewrite P; discriminate | split; [rewrite pcof_set_pc; reflexivity|]].
    exact (tr_set_pc HR (set_lock s (Some t) (waiters s)) t _ u).
  - split; [intros E; rewrite E in Q; exact Q|].
    split; [rewrite pcof_set_pc; destruct (pcof s t); try contradiction; rewrite Q; reflexivity|].
    exact (tr_set_pc HR (set_lock s (wr s) (waiters s ++ [t])) t _ u).
  - split; [rewrite P; discriminate | split; [rewrite pcof_set_pc; reflexivity|]].
    exact (tr_set_pc HR (set_queue s [] (lin s ++ [(t, f)])) t _ u).
  - split; [rewrite P; discriminate | split; [rewrite pcof_set_pc; reflexivity|]].
    eapply (tr_trans HR); [|apply (tr_set_pc HR)].
    exact (tr_release_ws HR (waiters s) (set_wire s (pkt s + 1)%N (wire s)) u).
  - split; [rewrite P; discriminate | split; [rewrite pcof_finish_w; reflexivity|]].
    eapply (tr_trans HR); [|apply (tr_finish_w HR)].
    exact (tr_release_ws HR (waiters s) (set_wire s (pkt s + 1)%N (wire s ++ [((pkt s + 1)%N, held)])) u).
Qed.

Theorem step_bystander R (HR : task_rel R) s t s' u : step s t = Some s' -> u <> t -> R (tasks s u) (tasks s' u).
Proof.
  intros H Hu. destruct (shape_rel R HR s t s' u (step_shape_of s t s' H) (or_introl Hu)) as [(T & _)|(_ & _ & K)]; [|exact K].
  rewrite (touches_other T u Hu). apply (tr_refl HR).
Qed.

Lemma prog_release s n w t : t_prog (tasks (release (set_wire s n w)) t) = t_prog (tasks s t).
Proof. exact (tr_release_ws tr_prog (waiters s) (set_wire s n w) t). Qed.

Theorem step_self s t s' :
  step s t = Some s' -> move s t (pcof s t) (t_prog (tasks s t)) (pcof s' t) (t_prog (tasks s' t)).
Proof.
  intros H.
  destruct (step_shape_of s t s' H) as [[_ _ _ N _ _ _|s1 a k B ->|ev rest P E _ ->|d sid rest P E _ ->|a k P ->]
                                        |k f P W ->|q Q W ->|k f P ->|k held P _ _ ->|k held P _ _ ->];
    [exact N|..].
  - rewrite (tr_enter_close tr_prog), pcof_enter_close.
    destruct B as [[-> ->]|(-> & -> & -> & rest & E & ->)].
    + destruct (closed s) eqn:C; constructor; exact C.
    + rewrite E, popped_prog. change (closed (popped s t rest)) with (closed s).
      destruct (closed s) eqn:C; constructor; exact C.
  - rewrite P, E, (tr_finish tr_prog), (tr_feed tr_prog), pcof_finish, popped_prog.
    constructor. exact I.
  - rewrite P, E, (tr_finish tr_prog), (tr_push tr_prog), pcof_finish, popped_prog.
    constructor. exact I.
  - rewrite P, (tr_set_pc tr_prog), pcof_set_pc.
    assert (t_prog (tasks (drain_state (wake_pump_closed s)) t) = t_prog (tasks s t)) as ->; [|constructor].
    rewrite <- (tr_wake tr_prog s t). apply (tr_drain tr_prog).
  - rewrite P, (tr_set_pc tr_prog), pcof_set_pc. constructor. exact W.
  - rewrite pcof_set_pc, (tr_set_pc tr_prog). revert Q.
    destruct (pcof s t); intros Q; try contradiction; cbn in Q; subst q; constructor; exact W.
  - rewrite P, (tr_set_pc tr_prog), pcof_set_pc. constructor.
  - rewrite P, (tr_set_pc tr_prog), pcof_set_pc.
    rewrite prog_release. constructor.
  - rewrite P, (tr_finish_w tr_prog), pcof_finish_w.
    rewrite prog_release. constructor.
Qed.

Lemma prog_suffix s t s' u :
  step s t = Some s' ->
  t_prog (tasks s' u) = t_prog (tasks s u) \/ exists c, t_prog (tasks s u) = c :: t_prog (tasks s' u).
Proof.
  intros H. destruct (Nat.eq_dec u t) as [->|Hu]; [|left; apply (step_bystander _ tr_prog s t s' u H Hu)].
  destruct (step_self s t s' H); first [left; reflexivity | right; eexists; reflexivity].
Qed.

Theorem step_self_stream s t s' : step s t = Some s' -> stream_ok s t (tasks s' t).
Proof.
  intros H.
  destruct (shape_rel _ tr_stream_kept s t s' t (step_shape_of s t s' H)) as [(_ & N & _)|(P & _ & K)];
    [right; intros x rest; split; auto | exact N|].
  unfold stream_ok. destruct (pcof s t); try exact K. contradiction.
Qed.

(* the classes that touch more than one task, framed from the source with the fields they set adjusted *)
Lemma framed_feed_step s t ev : framed (with_tables_of s (feed_ev s ev)) (finish (feed_ev s ev) t ResOk).
Proof. eapply framed_trans; [apply framed_feed | apply framed_set_tasks]. Qed.
Lemma framed_push_step s t f :
  framed (set_pump s (dq (push_item s t f)) (pushed (push_item s t f)) (pump_owner s) (pump_done s))
         (finish (push_item s t f) t ResOk).
Proof. eapply framed_trans; [apply framed_push | apply framed_set_tasks]. Qed.
Lemma framed_drain_step s t p : framed (drain_state s) (set_pc (drain_state (wake_pump_closed s)) t p).
Proof. eapply framed_trans; [apply framed_drain, framed_wake | apply framed_set_tasks]. Qed.
Lemma framed_write_fail s t p n w : framed (set_wire s n w) (set_pc (release (set_wire s n w)) t p).
Proof. eapply framed_trans; [apply framed_release_ws | apply framed_set_tasks]. Qed.
Lemma framed_write_ok s t k n w : framed (set_wire s n w) (finish_w (release (set_wire s n w)) t k ResOk).
Proof. eapply framed_trans; [apply framed_release_ws | apply framed_finish_w]. Qed.

(* the flags only ever go from false to true, `shut` only by a shutdown attempt on a transport that has not stalled,
   `closed` only as the stepper, or the receive task it feeds, enters the drain *)
Definition flags_mono (s s' : state) : Prop :=
  (stalled s = true -> stalled s' = true) /\ (failing s = true -> failing s' = true) /\
  (shut s' = shut s \/ (stalled s = false /\ shut s' = true)).
Definition closed_by (s : state) (t : tid) (s' : state) : Prop :=
  closed s' = closed s \/
  (closed s = false /\ closed s' = true /\
   ((exists a k, pcof s' t = PC1 a k) \/ (t <> rtid /\ pcof s' rtid = PC1 AfterRecv WkPlain))).

Lemma mono_of_framed a s s' :
  framed a s' -> (stalled s = true -> stalled a = true) -> (failing s = true -> failing a = true) -> shut a = shut s ->
  flags_mono s s'.
Proof.
  intros F St Fl Sh. unfold flags_mono. rewrite (fr_stalled F), (fr_failing F), <- Sh.
  split; [exact St | split; [exact Fl|]].
  destruct (stalled a) eqn:Sa; [left; apply (fr_shut_stalled F Sa)|].
  destruct (shut a) eqn:Sha; [left; apply (fr_shut F Sha)|].
  destruct (shut s'); [right; split; [|reflexivity] | left; reflexivity].
  destruct (stalled s); [discriminate (St eq_refl) | reflexivity].
Qed.
Lemma flags_of_framed a s t s' :
  framed a s' -> closed a = closed s -> (stalled s = true -> stalled a = true) -> (failing s = true -> failing a = true) ->
  shut a = shut s -> closed_by s t s' /\ flags_mono s s'.
Proof.
  intros F C St Fl Sh. split; [left; rewrite (fr_closed F); exact C | exact (mono_of_framed a s s' F St Fl Sh)].
Qed.

Lemma closed_enter_close s t a k :
  closed (enter_close s t a k) = closed s \/
  (closed s = false /\ closed (enter_close s t a k) = true /\ pcof (enter_close s t a k) t = PC1 a k).
Proof.
  rewrite (fr_closed (framed_enter_close s t a k)), pcof_enter_close.
  destruct (closed s); auto.
Qed.
Lemma closed_feed s ev :
  closed (feed_ev s ev) = closed s \/
  (closed s = false /\ closed (feed_ev s ev) = true /\ pcof (feed_ev s ev) rtid = PC1 AfterRecv WkPlain).
Proof.
  unfold feed_ev. destruct (negb (ralive s)); [left; reflexivity|]. destruct ev.
  - left. destruct (lookup_owner (table s) owner); [destruct (t_verdict (tasks s owner))|]; reflexivity.
  - left. destruct (lookup_owner (rtable s) owner); reflexivity.
  - left. destruct (lookup_owner (rtable s) owner); reflexivity.
  - destruct (pc_is_idle (t_pc (tasks s rtid))); [apply (closed_enter_close (mark_state s)) | left; reflexivity].
  - destruct (pc_is_idle (t_pc (tasks s rtid))); [apply closed_enter_close | left; reflexivity].
  - left. destruct (pc_is_idle (t_pc (tasks s rtid))); reflexivity.
Qed.

Theorem step_flags s t s' : step s t = Some s' -> closed_by s t s' /\ flags_mono s s'.
Proof.
  intros H.
  destruct (step_shape_of s t s' H) as [[_ _ _ _ _ _ E|s1 a k B ->|ev rest _ _ Hr ->|d sid rest _ _ _ ->|a k _ ->]
                                        |k f _ _ ->|q _ _ ->|k f _ ->|k held _ _ _ ->|k held _ _ _ ->].
  - destruct E as [_ _ F|? ? _ _ ? F|_ _ F|_ _ _ _ F|? ? ? _ _ _ _ _ F|? ? _ F|_ F|? _ F]; apply (flags_of_framed _ s t s' F); cbn; auto.
  - assert (closed s1 = closed s /\ stalled s1 = stalled s /\ failing s1 = failing s /\ shut s1 = shut s) as (C & St & Fl & Sh)
      by (destruct B as [[_ ->]|(_ & _ & _ & rest & _ & ->)]; repeat split; reflexivity).
    split.
    + unfold closed_by. rewrite <- C. destruct (closed_enter_close s1 t a k) as [E|(E0 & E1 & P)]; [left; exact E | right; eauto 6].
    + apply (mono_of_framed _ s _ (framed_enter_close s1 t a k)); cbn; congruence.
  - set (s0 := popped s t rest).
    split; [|apply (mono_of_framed _ s _ (framed_feed_step (popped s t rest) t ev)); cbn; auto].
    destruct (closed_feed s0 ev) as [E|(E0 & E1 & P)]; [left; exact E | right].
    split; [exact E0 | split; [exact E1 | right; split; [exact Hr|]]].
    rewrite <- P. apply (pcu_other (pcu_finish (feed_ev s0 ev) t ResOk)). congruence.
  - apply (flags_of_framed _ s t _ (framed_push_step (popped s t rest) t (psh_frame sid d))); cbn; auto.
  - apply (flags_of_framed _ s t _ (framed_drain_step s t (PC2 a k))); cbn; auto.
  - apply (flags_of_framed s s t); [fields | | | |]; auto.
  - apply (flags_of_framed s s t); [fields | | | |]; auto.
  - apply (flags_of_framed (set_queue s [] (lin s ++ [(t, f)])) s t); [fields | | | |]; auto.
  - apply (flags_of_framed _ s t _ (framed_write_fail s t _ _ _)); cbn; auto.
  - apply (flags_of_framed _ s t _ (framed_write_ok s t k _ _)); cbn; auto.
Qed.

Lemma step_shutd s t s' : step s t = Some s' -> shutd s = true -> shutd s' = true.
Proof.
  intros H S. destruct (step_flags s t s' H) as (_ & St & _ & Sh). unfold shutd in *.
  apply orb_true_iff in S. apply orb_true_iff. destruct S as [S|S]; [|right; apply St; exact S].
  destruct Sh as [Sh|[_ Sh]]; left; congruence.
Qed.

Definition logged (t : tid) (p : pc) : list witem := match p with PW1 _ f | PW3 _ f => [(t, f)] | _ => [] end.

(* what a step adds to the two ghost records: the stepping task's submissions and the log *)
Theorem step_ledger s t s' :
  step s t = Some s' ->
  t_sub (tasks s' t) = t_sub (tasks s t) ++ submitted (pcof s t) (pcof s' t) /\ lin s' = lin s ++ logged t (pcof s t).
Proof.
  intros H. pose proof (step_shape_of s t s' H) as Sh. split.
  - destruct (shape_rel _ tr_sub s t s' t Sh) as [(_ & _ & Sb)|(_ & -> & K)]; [right; reflexivity | exact Sb|].
    rewrite K. symmetry. apply app_nil_r.
  - destruct Sh as [[_ _ _ _ _ _ E|s1 a k B ->|ev rest P _ _ ->|d sid rest P _ _ ->|a k P ->]
                    |k f P _ ->|q Q _ ->|k f P ->|k held P _ _ ->|k held P _ _ ->].
    + destruct E as [P _ F|? ? P _ _ F|P _ F|P _ _ _ F|? ? ? P _ _ _ _ F|? ? P F|P F|? P F]; rewrite (fr_lin F);
        [destruct (pcof s t); try discriminate P | rewrite P ..]; cbn; rewrite ?app_nil_r; reflexivity.
    + rewrite (fr_lin (framed_enter_close s1 t a k)). cbn. rewrite (fr_lin (begun_framed s t a k s1 B)).
      destruct B as [[-> _]|[-> _]]; symmetry; apply app_nil_r.
    + rewrite (fr_lin (framed_feed_step (popped s t rest) t ev)), P. symmetry. apply app_nil_r.
    + rewrite (fr_lin (framed_push_step (popped s t rest) t (psh_frame sid d))), P. symmetry. apply app_nil_r.
    + rewrite (fr_lin (framed_drain_step s t (PC2 a k))), P. symmetry. apply app_nil_r.
    + rewrite P. symmetry. apply app_nil_r.
    + destruct (pcof s t); try contradiction; symmetry; apply app_nil_r.
    + rewrite P. reflexivity.
    + rewrite (fr_lin (framed_write_fail s t _ _ _)), P. symmetry. apply app_nil_r.
    + rewrite (fr_lin (framed_write_ok s t k _ _)), P. symmetry. apply app_nil_r.
Qed.

Lemma run_cons s t sched : run s (t :: sched) = run (step_or_skip s t) sched.
Proof. reflexivity. Qed.

Lemma run_app s l1 l2 : run s (l1 ++ l2) = run (run s l1) l2.
Proof. unfold run. apply fold_left_app. Qed.

Lemma run_invariant (P : state -> Prop) :
  (forall s t s', Inv s -> P s -> step s t = Some s' -> P s') ->
  forall sched s, Inv s -> P s -> P (run s sched).
Proof.
  intros Hstep. induction sched as [|t sched IH]; intros s HI HP; [exact HP|].
  rewrite run_cons. unfold step_or_skip. destruct (step s t) as [s1|] eqn:E.
  - apply IH; [eapply step_inv; eauto | eapply Hstep; eauto].
  - apply IH; assumption.
Qed.

Theorem run_inv sched : forall s, Inv s -> Inv (run s sched).
Proof. intros s HI. apply (run_invariant Inv); [intros; eapply step_inv; eauto | exact HI | exact HI]. Qed.

Lemma open_back s t s' : step s t = Some s' -> closed s' = false -> closed s = false.
Proof. intros H C. destruct (step_flags s t s' H) as [[E|(E & _)] _]; congruence. Qed.

Lemma run_invariant_open (P : state -> Prop) :
  (forall s t s', Inv s -> P s -> step s t = Some s' -> closed s' = false -> P s') ->
  forall sched s, Inv s -> P s -> closed (run s sched) = false -> P (run s sched).
Proof.
  intros Hstep sched s HI HP. apply (run_invariant (fun s' => closed s' = false -> P s')); auto.
  intros s1 t s2 HI1 P1 H C2. apply (Hstep s1 t s2 HI1); auto. apply P1. exact (open_back s1 t s2 H C2).
Qed.

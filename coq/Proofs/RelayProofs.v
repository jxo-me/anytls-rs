(* RelayProofs.v -- the copy loops forward exactly what they read (Model/Relay.v), and the upload direction of a
   tunnel composed with the session pipe. *)
From Coq Require Import List NArith Lia Bool.
From AnyTLS Require Import Bytes Cmd Generated FactsRelay Frame Reader Session ReaderProofs
  SessPipe Relay.
Import ListNotations.
Import Sess.
Open Scope N_scope.

Lemma firstn_fill buf d : firstn (length d) (fill buf d) = d.
Proof.
  unfold fill. rewrite firstn_app, firstn_all, Nat.sub_diag. cbn [firstn]. apply app_nil_r.
Qed.

Lemma fill_length buf d : (length d <= length buf)%nat -> length (fill buf d) = length buf.
Proof. intros H. unfold fill. rewrite app_length, skipn_length. lia. Qed.

(* the stale tail survives a read: that is why only `firstn (length d)` of the buffer is forwarded (`&buf[..n]`) *)
Lemma fill_keeps_tail buf d : skipn (length d) (fill buf d) = skipn (length d) buf.
Proof.
  unfold fill. rewrite skipn_app, skipn_all, Nat.sub_diag. reflexivity.
Qed.

Lemma lp_run_stopped es : forall s, lstop s = true -> lp_run s es = s.
Proof.
  induction es as [|e es IH]; intros s H; [reflexivity|].
  cbn [lp_run fold_left]. unfold lp_iter at 2. rewrite H. apply IH, H.
Qed.

Lemma lp_run_spec es : forall s, lstop s = false -> lout (lp_run s es) = lout s ++ relay_spec es.
Proof.
  induction es as [|[r w] es IH]; intros s H.
  - cbn. symmetry. apply app_nil_r.
  - cbn [lp_run fold_left relay_spec]. unfold lp_iter at 2. rewrite H. cbn [fst snd].
    change (fold_left lp_iter es ?x) with (lp_run x es).
    destruct r as [d| |]; [destruct (is_nil d); [|destruct w]|..].
    2: { rewrite IH by reflexivity. cbn [lout]. unfold slice_len.
         rewrite relay_sinks_exact, firstn_fill, <- app_assoc. reflexivity. }
    all: rewrite lp_run_stopped by reflexivity; cbn [lout lp_stop]; symmetry; apply app_nil_r.
Qed.

Lemma relay_exact cap es : relay cap es = relay_spec es.
Proof. unfold relay. rewrite lp_run_spec by reflexivity. reflexivity. Qed.

Lemma relay_exact_any_buffer buf0 es :
  lout (lp_run {| lbuf := buf0; lout := []; lstop := false |} es) = relay_spec es.
Proof. rewrite lp_run_spec by reflexivity. reflexivity. Qed.

Definition reads_fit (cap : N) (es : list (rd_ev * wr_ev)) : Prop :=
  Forall (fun e => match fst e with GotN d => lenN d <= cap | _ => True end) es.

Lemma lp_iter_buf_len s e n :
  length (lbuf s) = n -> match fst e with GotN d => (length d <= n)%nat | _ => True end ->
  length (lbuf (lp_iter s e)) = n.
Proof.
  intros Hn He. unfold lp_iter. destruct (lstop s); [exact Hn|].
  destruct (fst e) as [d| |]; try exact Hn.
  destruct (is_nil d); [exact Hn|].
  destruct (snd e); cbn [lbuf]; rewrite fill_length; lia.
Qed.

Lemma relay_buffer_bounded cap es : reads_fit cap es -> lenN (lbuf (lp_run (lp_init cap) es)) = cap.
Proof.
  intros H. unfold lenN.
  assert (G : forall s, length (lbuf s) = N.to_nat cap -> length (lbuf (lp_run s es)) = N.to_nat cap).
  { induction H as [|e es He Hes IH]; intros s Hs; [exact Hs|].
    cbn [lp_run fold_left]. apply IH. apply lp_iter_buf_len; [exact Hs|].
    destruct (fst e) as [d| |]; auto. unfold lenN in He. lia. }
  rewrite G; [lia|]. unfold lp_init, zeros. cbn [lbuf]. apply repeat_length.
Qed.

Lemma relay_spec_prefix es : exists rest, concat (relay_spec es) ++ rest = source_bytes es.
Proof.
  induction es as [|[r w] es IH]; [exists []; reflexivity|].
  cbn [relay_spec source_bytes]. destruct r as [d| |]; try (exists []; reflexivity).
  destruct (is_nil d); [exists []; reflexivity|].
  destruct w.
  - destruct IH as [rest IH]. exists rest. cbn [concat]. rewrite <- app_assoc, IH. reflexivity.
  - exists (d ++ source_bytes es). reflexivity.
Qed.

Lemma relay_spec_complete es : ran_to_eof es = true -> concat (relay_spec es) = source_bytes es.
Proof.
  induction es as [|[r w] es IH]; [discriminate|].
  cbn [relay_spec source_bytes ran_to_eof]. destruct r as [d| |]; try reflexivity; try discriminate.
  destruct (is_nil d); [reflexivity|]. destruct w; [|discriminate].
  intros H. cbn [concat]. rewrite IH by exact H. reflexivity.
Qed.

Lemma relay_spec_nonempty es : Forall (fun c => c <> []) (relay_spec es).
Proof.
  induction es as [|[r w] es IH]; [constructor|].
  cbn [relay_spec]. destruct r as [d| |]; try constructor.
  destruct (is_nil d) eqn:E; [constructor|]. destruct w; constructor; auto.
  intros ->. discriminate.
Qed.

(* every chunk handed to the sink fits the buffer (so a write_data_frame sink never has to split: <= 65535) *)
Lemma relay_spec_fit cap es : reads_fit cap es -> Forall (fun c => lenN c <= cap) (relay_spec es).
Proof.
  induction 1 as [|[r w] es He Hes IH]; [constructor|].
  cbn [relay_spec]. destruct r as [d| |]; try constructor.
  destruct (is_nil d); [constructor|]. destruct w; constructor; auto.
Qed.

Definition read_chunks (rs : list rd_ev) : list bytes :=
  flat_map (fun r => match r with GotN d => [d] | _ => [] end) rs.

Lemma source_zip_prefix rs : forall ws,
  exists rest, source_bytes (zip_ev rs ws) ++ rest = concat (read_chunks rs).
Proof.
  induction rs as [|r rs IH]; intros ws; [exists []; reflexivity|].
  assert (Hz : exists w ws', zip_ev (r :: rs) ws = (r, w) :: zip_ev rs ws') by (destruct ws; cbn; eauto).
  destruct Hz as (w & ws' & ->). cbn [source_bytes read_chunks flat_map].
  destruct r as [d| |]; try (eexists; reflexivity).
  destruct (IH ws') as [rest E]. cbn [app concat]. destruct d as [|x d]; cbn [is_nil]; [eexists; reflexivity|].
  exists rest. rewrite <- app_assoc, E. reflexivity.
Qed.

Lemma log_reads_delivered b k lg : concat (read_chunks (log_reads b k lg)) = delivered b k lg.
Proof.
  induction lg as [|[[s k'] res] lg IH]; [reflexivity|].
  unfold read_chunks, log_reads, delivered in *. cbn [flat_map].
  destruct res as [d| |]; cbn [app]; [| |exact IH];
    destruct ((s =? b) && Nat.eqb k' k); cbn [flat_map app concat]; rewrite ?IH; reflexivity.
Qed.

Lemma to_target_prefix cap b k lg ws : exists rest, to_target cap b k lg ws ++ rest = delivered b k lg.
Proof.
  unfold to_target. rewrite relay_exact.
  destruct (relay_spec_prefix (zip_ev (log_reads b k lg) ws)) as [r1 E1].
  destruct (source_zip_prefix (log_reads b k lg) ws) as [r2 E2].
  exists (r1 ++ r2). rewrite app_assoc, E1, E2. apply log_reads_delivered.
Qed.

Definition log_data_nonempty (lg : rlog) : Prop :=
  Forall (fun e => match e with (_, _, RData d) => d <> [] | _ => True end) lg.

Lemma run_rops_data_nonempty c ops : forall st carry, caps_pos ops ->
  let '(_, _, lg) := run_rops c st carry ops in log_data_nonempty lg.
Proof.
  induction ops as [|o ops IH]; intros st carry Hc; [constructor|].
  inversion Hc as [|? ? Ho Hc']; subst.
  destruct o as [ch|sid k cap]; cbn [run_rops].
  - destruct (recv c st carry ch) as [[st1 carry1] o1]. apply IH, Hc'.
  - unfold read. destruct (obj st sid k) as [s|].
    + destruct (rd_read (rd s) cap) as [r' res] eqn:Er.
      specialize (IH (set_obj st sid k (set_rd s r')) carry Hc').
      destruct (run_rops c (set_obj st sid k (set_rd s r')) carry ops) as [[st2 c2] lg].
      constructor; [|exact IH]. destruct res as [d| |]; auto.
      eapply rd_read_data_nonempty; [exact Ho | exact Er].
    + apply IH, Hc'.
Qed.

Definition got_data (r : rd_ev) : Prop := match r with GotN d => d <> [] | GotEof => False | GotErr => False end.

Lemma relay_all_ok rs :
  Forall got_data rs ->
  concat (relay_spec (zip_ev rs [])) = concat (read_chunks rs).
Proof.
  induction 1 as [|r rs Hr Hrs IH]; [reflexivity|].
  destruct r as [d| |]; try contradiction.
  cbn [zip_ev relay_spec read_chunks flat_map app concat]. fold (read_chunks rs).
  destruct d as [|x d]; [congruence|]. cbn [is_nil]. cbn [concat]. rewrite IH. reflexivity.
Qed.

Lemma log_reads_ok b k lg : log_data_nonempty lg -> saw_eof b k lg = false ->
  Forall got_data (log_reads b k lg).
Proof.
  induction 1 as [|[[s k'] res] lg He Hlg IH]; intros Hs; [constructor|].
  unfold log_reads. cbn [flat_map]. fold (log_reads b k lg).
  unfold saw_eof in Hs. cbn [existsb] in Hs. fold (saw_eof b k lg) in Hs.
  destruct res as [d| |].
  - cbn [orb] in Hs. destruct ((s =? b) && Nat.eqb k' k); cbn [app]; [constructor; [exact He|]|]; apply IH, Hs.
  - apply orb_false_iff in Hs. destruct Hs as [Hs1 Hs2]. rewrite Hs1. cbn [app]. apply IH, Hs2.
  - cbn [orb app] in Hs |- *. apply IH, Hs.
Qed.

Lemma to_target_all cap b k lg :
  log_data_nonempty lg -> saw_eof b k lg = false -> to_target cap b k lg [] = delivered b k lg.
Proof.
  intros H1 H2. unfold to_target. rewrite relay_exact, relay_all_ok by (apply log_reads_ok; assumption).
  apply log_reads_delivered.
Qed.

(* upload, end to end: front-end relay (events es1 = the application's reads and the results of write_data_frame)
   -> wops of stream b -> session pipe -> server relay with the target's write results ws *)
Lemma tunnel_upload_prefix capC capS es1 ws cR stR b s w gs stS wops :
  pipe_setup cR stR b s w gs stS wops -> written b wops = concat (relay capC es1) ->
  forall ops rest, concat (recv_chunks ops) ++ rest = w -> caps_pos ops ->
  let '(_, _, lg) := run_rops cR stR [] ops in
  exists missing, to_target capS b (length (only b (gone stR))) lg ws ++ missing = source_bytes es1.
Proof.
  intros Hset Hw ops rest Hr Hcaps.
  pose proof (pipe_prefix cR stR b s w gs stS wops Hset ops rest Hr Hcaps) as H.
  destruct (run_rops cR stR [] ops) as [[st' c'] lg].
  destruct H as [[more E] _].
  destruct (to_target_prefix capS b (length (only b (gone stR))) lg ws) as [r1 E1].
  rewrite Hw, relay_exact in E. destruct (relay_spec_prefix es1) as [r2 E2].
  exists (r1 ++ more ++ r2). rewrite app_assoc, E1, app_assoc, E. exact E2.
Qed.

Lemma tunnel_upload_complete capC capS es1 cR stR b s w gs stS wops :
  pipe_setup cR stR b s w gs stS wops -> written b wops = concat (relay capC es1) -> ran_to_eof es1 = true ->
  forall ops, concat (recv_chunks ops) = w -> caps_pos ops ->
  let '(stR', _, lg) := run_rops cR stR [] ops in
  forall s', lookup b (tbl stR') = Some s' -> rd_pending_bytes (rd s') = [] ->
  to_target capS b (length (only b (gone stR))) lg [] = source_bytes es1.
Proof.
  intros Hset Hw He ops Hr Hcaps.
  pose proof (pipe_main cR stR b s w gs stS wops Hset ops [] ltac:(rewrite app_nil_r; exact Hr) Hcaps) as H.
  pose proof (run_rops_data_nonempty cR ops stR [] Hcaps) as Hne.
  destruct (run_rops cR stR [] ops) as [[st' c'] lg].
  destruct H as (s1 & later & Hl & _ & E & Heof & Hlater & _).
  intros s' Hl' Hp. rewrite Hl in Hl'. injection Hl' as ->.
  rewrite (Hlater eq_refl), Hp in E. cbn [app] in E. rewrite app_nil_r in E.
  rewrite to_target_all by assumption.
  rewrite E, Hw, relay_exact. apply relay_spec_complete, He.
Qed.

(* a sink that calls write_data_frame directly (front-end Task2): the accepted chunks are the submissions of stream b *)
Lemma written_of_chunks b cs : written b (map (WData b) cs) = concat cs.
Proof.
  induction cs as [|c cs IH]; [reflexivity|].
  cbn [map written flat_map]. fold (written b (map (WData b) cs)). rewrite N.eqb_refl, IH. reflexivity.
Qed.

(* submissions of other streams, interleaved in any way, do not show up in b's bytes *)
Fixpoint merge_ok (b : N) (cs : list bytes) (ops : list wop) : Prop :=
  match ops with
  | [] => cs = []
  | WData s d :: r => if s =? b then match cs with c :: cs' => d = c /\ merge_ok b cs' r | [] => False end
                      else merge_ok b cs r
  | WCtrl f :: r => cmd_eqb (fcmd f) Push = false /\ merge_ok b cs r
  end.

Lemma written_of_merge b ops : forall cs, merge_ok b cs ops -> written b ops = concat cs.
Proof.
  induction ops as [|o ops IH]; intros cs H.
  - cbn in H. subst cs. reflexivity.
  - destruct o as [s d|f]; cbn [merge_ok] in H; cbn [written flat_map]; fold (written b ops).
    + destruct (s =? b).
      * destruct cs as [|c cs]; [contradiction|]. destruct H as [-> H]. cbn [concat]. rewrite (IH cs H). reflexivity.
      * cbn [app]. apply IH, H.
    + destruct H as [Hf H]. rewrite Hf. cbn [andb app]. apply IH, H.
Qed.

(* a sink that calls Stream::send_data (server Task2): one channel item per call; the forwarding task
   (process_stream_data) turns the queue into the same submissions in the same order *)
Definition wops_of_queue (q : list (N * bytes)) : list wop := map (fun p => WData (fst p) (snd p)) q.

Lemma run_wops_with_sendq st q ops : run_wops (with_sendq st q) ops = run_wops st ops.
Proof.
  induction ops as [|o ops IH]; [reflexivity|].
  cbn [run_wops flat_map]. fold (run_wops (with_sendq st q) ops). fold (run_wops st ops). rewrite IH.
  destruct o; reflexivity.
Qed.

Lemma pump_n_wops n : forall st, s_closed st = false -> n = length (sendq st) ->
  snd (pump_n n st) = run_wops st (wops_of_queue (sendq st)) /\ sendq (fst (pump_n n st)) = [].
Proof.
  induction n as [|n IH]; intros st Hc Hn.
  - destruct (sendq st) eqn:E; [|discriminate]. cbn. rewrite E. split; reflexivity.
  - destruct (sendq st) as [|[sid d] q] eqn:E; [discriminate|].
    cbn [pump_n]. unfold pump. rewrite E, Hc.
    specialize (IH (with_sendq st q) Hc ltac:(cbn; cbn in Hn; congruence)).
    destruct (pump_n n (with_sendq st q)) as [st2 o2]. cbn [snd fst] in IH |- *. destruct IH as [IH1 IH2].
    split; [|exact IH2]. rewrite IH1, run_wops_with_sendq. cbn [with_sendq sendq].
    cbn [wops_of_queue map run_wops flat_map fst snd]. reflexivity.
Qed.

Lemma stream_send_appends st sid k d st' : stream_send st sid k d = (st', WOk) ->
  sendq st' = sendq st ++ [(sid, d)] /\ s_closed st' = s_closed st.
Proof.
  unfold stream_send. destruct (obj st sid k); [|discriminate].
  destruct (sclosed s || s_closed st); [discriminate|]. intros H. injection H as <-. split; reflexivity.
Qed.

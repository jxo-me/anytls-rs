(* UdpProofs.v -- the datagram framing of Model/Udp.v (C15): a datagram travels as be16 length ++ payload.  The
   decoding loop returns exactly the datagrams that were framed, over the flat stream and over every chunking of
   it; a datagram of legal UDP size fits one frame; the parameters the code runs the loops with. *)
From Coq Require Import List NArith ZArith Lia Bool.
From AnyTLS Require Import Bytes Reader ReaderProg Generated FactsParsers Dest Udp BytesFacts ReaderProofs DestProofs.
Import ListNotations.
Open Scope N_scope.

Definition dgram_ok (mx : N) (d : bytes) : Prop := lenN d <= mx.

Section Udp.
Variable mx : N.
Hypothesis Hmx : mx <= 65535.

Lemma udp_encode_some d : lenN d <= mx -> udp_encode mx d = Some (udp_frame d).
Proof.
  intros H. unfold udp_encode, udp_frame, u16_of.
  destruct (N.ltb_spec mx (lenN d)); [lia|]. replace (lenN d mod 65536) with (lenN d) by lia_div. reflexivity.
Qed.

Lemma udp_encode_none d : mx < lenN d -> udp_encode mx d = None.
Proof. intros H. unfold udp_encode. apply N.ltb_lt in H. now rewrite H. Qed.

Lemma udp_read1_frame d rest : dgram_ok mx d -> udp_read1 mx (udp_frame d ++ rest) = Accept d rest.
Proof.
  intros H2. unfold dgram_ok in H2. unfold udp_read1, udp_read1_prog, udp_frame. rewrite <- app_assoc.
  rewrite run_exact_app by reflexivity. rewrite de16_of_be16 by lia.
  destruct (N.eqb_spec (lenN d) 0) as [E0|E0].
  - apply lenN_zero_nil in E0. subst d. reflexivity.
  - destruct (N.ltb_spec mx (lenN d)); [lia|].
    rewrite run_exact_app by reflexivity. reflexivity.
Qed.

Lemma udp_read1_exact_only : exact_only E_EOF (udp_read1_prog mx).
Proof.
  unfold udp_read1_prog. constructor. intros l. destruct (de16_of l =? 0); [constructor|].
  destruct (mx <? de16_of l); constructor. intros d. constructor.
Qed.

Lemma udp_loop_frames ds : forall fuel rest,
  Forall (dgram_ok mx) ds -> udp_read1 mx rest = NeedMore -> (length ds < fuel)%nat ->
  udp_loop fuel false mx (concat (map udp_frame ds) ++ rest) = (ds, UMore rest).
Proof.
  induction ds as [|d ds IH]; intros fuel rest Hall Hn Hf.
  - destruct fuel as [|k]; [lia|]. cbn [map concat app udp_loop]. rewrite Hn. reflexivity.
  - destruct fuel as [|k]; [cbn in Hf; lia|]. inversion Hall as [|? ? Hd Hds]; subst.
    cbn [map concat udp_loop]. rewrite <- app_assoc, (udp_read1_frame d _ Hd). cbn [andb].
    rewrite (IH k rest Hds Hn) by (cbn in Hf; lia). reflexivity.
Qed.

Lemma frames_length ds : (length ds <= length (concat (map udp_frame ds)))%nat.
Proof.
  induction ds as [|d ds IH]; [cbn; lia|]. cbn [map concat]. rewrite app_length.
  unfold udp_frame at 1, be16. cbn [app length]. lia.
Qed.

Lemma udp_roundtrip_tail ds tail :
  Forall (dgram_ok mx) ds -> udp_read1 mx tail = NeedMore ->
  udp_decode_all false mx (concat (map udp_frame ds) ++ tail) = (ds, UMore tail).
Proof.
  intros Hall Hn. unfold udp_decode_all. apply udp_loop_frames; [exact Hall | exact Hn|].
  rewrite app_length. pose proof (frames_length ds). lia.
Qed.

Lemma udp_roundtrip ds :
  Forall (dgram_ok mx) ds -> udp_decode_all false mx (concat (map udp_frame ds)) = (ds, UMore []).
Proof. intros Hall. rewrite <- (app_nil_r (concat _)). now apply udp_roundtrip_tail. Qed.

Lemma udp_loop_rd_frames ds : forall fuel st rest,
  rd_wf st -> rd_pending_bytes st = concat (map udp_frame ds) ++ rest ->
  Forall (dgram_ok mx) ds -> udp_read1 mx rest = NeedMore -> (length ds < fuel)%nat ->
  exists st', udp_loop_rd fuel false mx st = (st', ds, if rclosed st then SFail E_EOF else SPending).
Proof.
  induction ds as [|d ds IH]; intros fuel st rest Hwf Hp Hall Hn Hf.
  - destruct fuel as [|k]; [lia|]. cbn [map concat app] in Hp. cbn [udp_loop_rd].
    destruct (run_rd_needmore (udp_read1_prog mx) st E_EOF Hwf udp_read1_exact_only) as (st' & Hr).
    + rewrite Hp. exact Hn.
    + rewrite Hr. exists st'. destruct (rclosed st); reflexivity.
  - destruct fuel as [|k]; [cbn in Hf; lia|]. inversion Hall as [|? ? Hd Hds]; subst.
    cbn [map concat] in Hp. rewrite <- app_assoc in Hp. cbn [udp_loop_rd].
    destruct (run_rd_accept (udp_read1_prog mx) st d (concat (map udp_frame ds) ++ rest) Hwf)
      as (st' & Hr & Hp' & Hc' & Hwf').
    + rewrite Hp. apply udp_read1_frame. exact Hd.
    + rewrite Hr. cbn [andb].
      destruct (IH k st' rest Hwf' Hp' Hds Hn ltac:(cbn in Hf; lia)) as (st'' & Hl).
      rewrite Hl, Hc'. exists st''. reflexivity.
Qed.

Lemma udp_chunking ds chunks closed :
  Forall (dgram_ok mx) ds -> concat chunks = concat (map udp_frame ds) ->
  udp_stream_rd false mx chunks closed = (ds, if closed then SFail E_EOF else SPending).
Proof.
  intros Hall Hc. unfold udp_stream_rd.
  destruct (udp_loop_rd_frames ds (S (length (concat chunks))) (rd_of_chunks chunks closed) []
              (rd_wf_of_chunks _ _)) as (st' & Hl).
  - rewrite rd_pending_of_chunks, app_nil_r. exact Hc.
  - exact Hall.
  - reflexivity.
  - rewrite Hc. pose proof (frames_length ds). lia.
  - rewrite Hl. reflexivity.
Qed.

Definition sres_of_uend (e : uend) : sres unit :=
  match e with UMore _ => SPending | UStop _ => SDone tt | UErr x => SFail x end.

(* for ARBITRARY byte streams (malformed included) the reader loop and the flat loop agree while the
   stream is open *)
Lemma udp_loop_rd_open stop fuel : forall st,
  rd_wf st -> rclosed st = false ->
  exists st', udp_loop_rd fuel stop mx st =
    (st', fst (udp_loop fuel stop mx (rd_pending_bytes st)), sres_of_uend (snd (udp_loop fuel stop mx (rd_pending_bytes st)))).
Proof.
  induction fuel as [|k IH]; intros st Hwf Hc.
  - exists st. reflexivity.
  - cbn [udp_loop_rd udp_loop]. unfold udp_read1.
    destruct (run_bytes (udp_read1_prog mx) (rd_pending_bytes st)) as [|e|d r] eqn:E.
    + destruct (run_rd_pending _ st Hwf Hc E) as (st' & ->). exists st'. reflexivity.
    + destruct (run_rd_reject _ st e Hwf E) as (st' & ->). exists st'. reflexivity.
    + destruct (run_rd_accept _ st d r Hwf E) as (st' & -> & Hp & Hc' & Hwf'). rewrite Hc in Hc'.
      destruct (stop && is_nil d).
      * exists st'. reflexivity.
      * destruct (IH st' Hwf' Hc') as (st'' & Hl). rewrite Hl, Hp.
        destruct (udp_loop k stop mx r) as [ds e]. exists st''. reflexivity.
Qed.

End Udp.

(* one datagram of legal UDP size plus its prefix fits one frame payload *)
Lemma udp_fits_frame d : lenN d <= 65507 -> lenN (udp_frame d) <= encode_max_payload.
Proof.
  intros H. pose proof udp_datagram_fits_frame as F. unfold udp_frame. rewrite lenN_app.
  unfold be16, lenN at 1. cbn [length]. lia.
Qed.

(* the code's parameters (regenerated): both sides allow 65535, neither loop stops at an empty datagram *)
Lemma udp_code_params : forall side,
  udp_max side <= 65535 /\ udp_stop side = false.
Proof.
  destruct udp_max_both_u16 as [Hc Hs]. destruct udp_empty_datagram_forwarded as [Ec Es].
  intros [|]; unfold udp_max, udp_stop; rewrite ?Hc, ?Hs, ?Ec, ?Es; split; (lia || reflexivity).
Qed.

Lemma udp_bind_can_send t : udp_can_send (udp_bind_fam t) t = true.
Proof. unfold udp_bind_fam. rewrite udp_bind_follows_target. destruct t; reflexivity. Qed.

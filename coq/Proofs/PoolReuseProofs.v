(* PoolReuseProofs.v -- what the pool glue guarantees about reuse and about the number of live sessions, for client
   histories (create_stream / create_new_session / stream completions / deaths / reaper passes), and exactly
   where it stops: known finding F3 (a reused session never returns to the map) and the reach of known finding F2
   (the only stream the reaper can kill is the first stream of a session that was never reused). *)
From Coq Require Import List NArith ZArith Bool Lia.
From AnyTLS Require Import Generated Pool PoolProofs.
Import ListNotations.
Open Scope Z_scope.

Definition client_op (o : poolop) : Prop :=
  match o with PAcq | PCreate | PDone _ | PDie _ | PTick | PCleanup => True | _ => False end.

(* every live session is in the idle map -- what create_stream needs in order to find it *)
Definition complete (st : pool) : Prop :=
  forall sid, (sid < p_n st)%nat -> p_closed st sid = false -> In sid (map e_sid (p_idle st)).

(* keys handed out by the client's counter are fresh *)
Definition keys_fresh (st : pool) : Prop := Forall (fun e => (e_seq e < p_nextseq st)%N) (p_idle st).

Lemma get_idle_hit_if_live : forall closed idle,
  (exists e, In e idle /\ closed (e_sid e) = false) ->
  exists sid l', pool_get_idle closed idle = (Some sid, l').
Proof.
  intros closed idle [e [Hin Hc]].
  destruct (pool_get_idle closed idle) as [[sid|] l'] eqn:E; [eauto|].
  destruct (get_idle_spec _ _ _ _ E) as [d [Hd [-> _]]].
  rewrite Forall_forall in Hd. rewrite (Hd _ Hin) in Hc. discriminate.
Qed.

Theorem acq_reuses_if_complete : forall c now st,
  complete st -> (exists sid, (sid < p_n st)%nat /\ p_closed st sid = false) ->
  exists sid st', pool_step c now st PAcq = (st', QHit sid) /\
                  p_dials st' = p_dials st /\ p_closed st sid = false /\ p_n st' = p_n st.
Proof.
  intros c now st Hc [sid [Hlt Hl]].
  specialize (Hc _ Hlt Hl). apply in_map_iff in Hc. destruct Hc as [e [Es Hin]].
  destruct (get_idle_hit_if_live (p_closed st) (p_idle st)) as [s [l' E]].
  { exists e. rewrite Es. auto. }
  exists s. cbn [pool_step]. rewrite E. eexists. split; [reflexivity|]. cbn.
  repeat split. eapply get_idle_not_closed; eauto.
Qed.

Theorem acq_dials_only_if_map_dead : forall c now st st',
  pool_step c now st PAcq = (st', QMiss) ->
  Forall (fun e => p_closed st (e_sid e) = true) (p_idle st) /\ p_idle st' = [].
Proof.
  intros c now st st' H. cbn [pool_step] in H.
  destruct (pool_get_idle (p_closed st) (p_idle st)) as [[s|] l'] eqn:E; inversion H; subst; clear H.
  destruct (get_idle_spec _ _ _ _ E) as [d [Hd [-> ->]]]. cbn. auto.
Qed.

Lemma bt_insert_fresh : forall e l, Forall (fun x => (e_seq x < e_seq e)%N) l -> bt_insert e l = l ++ [e].
Proof.
  intros e l H. induction H as [|x l Hx Hl IH]; [reflexivity|].
  cbn. destruct (N.ltb_spec (e_seq e) (e_seq x)); [lia|].
  destruct (N.eqb_spec (e_seq e) (e_seq x)); [lia|]. rewrite IH. reflexivity.
Qed.

Record cinv (st : pool) : Prop := {
  ci_wf : wf st;
  ci_fresh : keys_fresh st
}.

Lemma cinv_step : forall c now st o, client_op o -> cinv st -> cinv (fst (pool_step c now st o)).
Proof.
  intros c now st o Ho [Hwf Hf]. constructor; [apply wf_step; assumption|].
  unfold keys_fresh in *.
  destruct (step_cases c now st o) as [l' e d Hi _ _| | | | |copy o Hc| | | |o r _]; try contradiction; cbn.
  - rewrite Hi in Hf. apply Forall_app in Hf. tauto.
  - constructor.
  - apply bt_insert_Forall; [cbn; lia|]. eapply Forall_impl; [|exact Hf]. cbn. intros. lia.
  - exact Hf.
  - exact Hf.
  - destruct (reap_step_eq copy c now st) as [k [cl [R ->]]]. exact (proj1 (reap_sub Hc R) _ Hf).
  - exact Hf.
Qed.

Lemma cinv_init : cinv pool_init.
Proof. constructor; [apply wf_init|constructor]. Qed.

Lemma hits_step_mono : forall c now st o, (p_hits st <= p_hits (fst (pool_step c now st o)))%N.
Proof.
  intros. destruct (step_cases c now st o) as [| | | | |copy o0 _| | | |]; try (cbn; lia).
  destruct (reap_step_eq copy c now st) as [k [cl [_ ->]]]. cbn. lia.
Qed.

Lemma complete_tick : forall copy c now st, copy_ok copy ->
  complete st -> complete (pool_reap_step copy c now st).
Proof.
  intros copy c now st Hk Hc sid. destruct (reap_step_eq copy c now st) as [k [cl [R ->]]]. cbn.
  intros Hlt Hl. apply close_set_false in Hl. destruct Hl as [Hl0 Hl].
  specialize (Hc _ Hlt Hl0). apply in_map_iff in Hc. destruct Hc as [e [<- Hin]].
  destruct (reap_partition Hk R e Hin Hl0); [apply in_map; assumption|contradiction].
Qed.

Lemma complete_step : forall c now st o, client_op o -> keys_fresh st -> complete st ->
  p_hits (fst (pool_step c now st o)) = p_hits st -> complete (fst (pool_step c now st o)).
Proof.
  intros c now st o Ho Hf Hc. unfold complete in *.
  destruct (step_cases c now st o) as [| Hd | | |sid _|copy o Hk| | | |o r _]; try contradiction; cbn.
  - lia.
  - (* a miss: no session is live *)
    intros _ sid Hlt Hl. exfalso. specialize (Hc _ Hlt Hl). apply in_map_iff in Hc.
    destruct Hc as [e [Es Hin]]. rewrite Forall_forall in Hd. specialize (Hd _ Hin). rewrite Es in Hd. congruence.
  - rewrite bt_insert_fresh by (cbn; exact Hf). rewrite map_app. cbn.
    intros _ sid Hlt Hl. apply in_or_app. destruct (Nat.eq_dec sid (p_n st)) as [->|Hne].
    + right. left. reflexivity.
    + left. rewrite pupd_other in Hl by assumption. apply Hc; [lia|assumption].
  - intros _. exact Hc.
  - intros _ s Hlt Hl. destruct (Nat.eq_dec s sid) as [->|Hne].
    + rewrite pupd_same in Hl. discriminate.
    + rewrite pupd_other in Hl by assumption. auto.
  - intros _. exact (complete_tick copy c now st Hk Hc).
  - intros _. exact Hc.
Qed.

Lemma hits_run_mono : forall c h st, (p_hits st <= p_hits (pool_run c st h))%N.
Proof.
  intros c h. induction h as [|x h IH]; intros st; [cbn; lia|].
  rewrite run_cons. specialize (IH (fst (pool_step c (fst x) st (snd x)))).
  pose proof (hits_step_mono c (fst x) st (snd x)). lia.
Qed.

Definition cnt (f : nat -> bool) (dom : list nat) : nat := length (filter (fun k => negb (f k)) dom).

Definition live (st : pool) : nat := cnt (p_closed st) (seq 0 (p_n st)).
Definition live_in_map (st : pool) : nat := live_cnt (p_closed st) (p_idle st).

Arguments live_cnt : simpl never.
Arguments cnt : simpl never.

Lemma live_cnt_as_cnt : forall closed l, live_cnt closed l = cnt closed (map e_sid l).
Proof.
  intros closed l. unfold live_cnt, cnt. induction l as [|e l IH]; [reflexivity|].
  cbn. destruct (closed (e_sid e)); cbn; rewrite IH; reflexivity.
Qed.

Lemma cnt_ext : forall f g dom, (forall k, In k dom -> f k = g k) -> cnt f dom = cnt g dom.
Proof.
  intros f g dom H. unfold cnt. f_equal. apply filter_ext_in. intros k Hk. rewrite (H k Hk). reflexivity.
Qed.

Lemma cnt_app : forall f l1 l2, cnt f (l1 ++ l2) = (cnt f l1 + cnt f l2)%nat.
Proof. intros. unfold cnt. rewrite filter_app, app_length. reflexivity. Qed.

Lemma cnt_cons : forall f a dom, cnt f (a :: dom) = ((if f a then 0 else 1) + cnt f dom)%nat.
Proof. intros. unfold cnt. cbn [filter]. destruct (f a); reflexivity. Qed.

Lemma cnt_close_same : forall f x dom, f x = true \/ ~ In x dom -> cnt (pupd f x true) dom = cnt f dom.
Proof.
  intros f x dom H. apply cnt_ext. intros k Hk. unfold pupd. destruct (Nat.eqb_spec k x) as [->|]; [|reflexivity].
  destruct H; [auto|contradiction].
Qed.

Lemma cnt_close_one : forall f x dom, NoDup dom -> In x dom -> f x = false ->
  (cnt (pupd f x true) dom + 1 = cnt f dom)%nat.
Proof.
  intros f x dom Hn. induction Hn as [|a dom Hna Hn IH]; intros Hin Hf; [contradiction|].
  rewrite !cnt_cons. destruct Hin as [->|Hin].
  - rewrite pupd_same, Hf, cnt_close_same by auto. cbn. lia.
  - rewrite pupd_other by (intro; subst; contradiction). specialize (IH Hin Hf). lia.
Qed.

Lemma cnt_close_bounds : forall f x dom, NoDup dom ->
  (cnt (pupd f x true) dom <= cnt f dom <= cnt (pupd f x true) dom + 1)%nat.
Proof.
  intros f x dom Hn. destruct (f x) eqn:E; [rewrite cnt_close_same by auto; lia|].
  destruct (in_dec Nat.eq_dec x dom) as [Hin|Hni].
  - pose proof (cnt_close_one f x dom Hn Hin E). lia.
  - rewrite cnt_close_same by auto. lia.
Qed.

Lemma close_set_cons_ext : forall f x cl k,
  pool_close_set f (x :: cl) k = pool_close_set (pupd f x true) cl k.
Proof.
  intros. unfold pool_close_set, pmemb, pupd. cbn [existsb].
  destruct (Nat.eqb k x); cbn; [rewrite orb_true_r; reflexivity|reflexivity].
Qed.

Lemma cnt_close_set : forall cl f dom, NoDup dom -> NoDup cl -> incl cl dom ->
  Forall (fun x => f x = false) cl ->
  (cnt (pool_close_set f cl) dom + length cl = cnt f dom)%nat.
Proof.
  intros cl. induction cl as [|x cl IH]; intros f dom Hd Hn Hi Hf.
  - cbn. rewrite (cnt_ext (pool_close_set f []) f); [lia|]. intros k _. unfold pool_close_set. cbn. apply orb_false_r.
  - inversion Hn as [|? ? Hx Hn']; subst. inversion Hf as [|? ? Hfx Hf']; subst.
    rewrite (cnt_ext _ _ dom (fun k _ => close_set_cons_ext f x cl k)).
    rewrite <- (cnt_close_one f x dom Hd (Hi _ (or_introl eq_refl)) Hfx).
    rewrite <- (IH (pupd f x true) dom Hd Hn'); [cbn; lia| |].
    + intros y Hy. apply Hi. right. assumption.
    + apply Forall_forall. intros y Hy. rewrite Forall_forall in Hf'.
      rewrite pupd_other; [auto|]. intro; subst; contradiction.
Qed.

Lemma live_cnt_app : forall closed l1 l2,
  live_cnt closed (l1 ++ l2) = (live_cnt closed l1 + live_cnt closed l2)%nat.
Proof. intros. unfold live_cnt. rewrite filter_app, app_length. reflexivity. Qed.

Lemma live_cnt_dead : forall closed l, Forall (fun e => closed (e_sid e) = true) l -> live_cnt closed l = 0%nat.
Proof.
  intros closed l H. induction H as [|e l He Hl IH]; [reflexivity|]. rewrite live_cnt_cons, He, IH. reflexivity.
Qed.

Record binv (st : pool) : Prop := {
  bi_c : cinv st;
  (* live sessions in the map + dials in flight *)
  bi_map : (N.of_nat (live_cnt (p_closed st) (p_idle st)) + p_pending st <= p_peak st)%N;
  bi_act : (p_pending st + p_streams st <= p_peak st)%N;
  (* each reuse takes one session out of the map for good *)
  bi_live : (N.of_nat (cnt (p_closed st) (seq 0 (p_n st))) <= N.of_nat (live_cnt (p_closed st) (p_idle st)) + p_hits st)%N
}.

Lemma binv_init : binv pool_init.
Proof. constructor; [apply cinv_init| | |]; unfold live_cnt, cnt; cbn; lia. Qed.

Lemma wf_sids_nodup_lt : forall st, wf st ->
  NoDup (map e_sid (p_idle st)) /\ incl (map e_sid (p_idle st)) (seq 0 (p_n st)).
Proof.
  intros st Hwf. split; [apply wf_nodup; assumption|].
  destruct Hwf as [_ Hk]. intros x Hx. apply in_map_iff in Hx. destruct Hx as [e [<- Hin]].
  rewrite Forall_forall in Hk. destruct (Hk _ Hin) as [_ L]. apply in_seq. lia.
Qed.

Lemma binv_tick : forall copy c now st, copy_ok copy ->
  cinv (pool_reap_step copy c now st) -> binv st -> binv (pool_reap_step copy c now st).
Proof.
  intros copy c now st Hk Hc' [[Hwf _] J1 J2 K].
  destruct (wf_sids_nodup_lt _ Hwf) as [Nd Inc].
  pose proof (tick_kept_live copy c now st Hk Hwf) as KL.
  destruct (reap_step_eq copy c now st) as [k [cl [R E]]]. rewrite E in *. cbn [p_idle p_closed] in KL.
  destruct (reap_sound Hk R _ (all_in _ _)) as [_ B].
  pose proof (reap_count Hk R) as C.
  destruct (reap_disjoint Hk R Nd) as [D1 D2].
  assert (Fcl : Forall (fun x => p_closed st x = false) cl).
  { eapply Forall_impl; [|exact B]. cbn. intros a [e [_ [_ [? _]]]]. assumption. }
  assert (Q : (cnt (pool_close_set (p_closed st) cl) (seq 0 (p_n st)) + length cl = cnt (p_closed st) (seq 0 (p_n st)))%nat).
  { apply cnt_close_set; [apply seq_NoDup|exact (NoDup_app_r _ _ _ D1)| |exact Fcl].
    intros x Hx. apply Inc, D2, in_or_app. right. assumption. }
  constructor; [assumption| | |]; cbn; try rewrite (live_cnt_all _ _ KL); lia.
Qed.

Lemma binv_step : forall c now st o, client_op o -> binv st -> binv (fst (pool_step c now st o)).
Proof.
  intros c now st o Ho B.
  pose proof (cinv_step c now st o Ho (bi_c _ B)) as Hc'. pose proof B as [[Hwf Hfr] J1 J2 K].
  destruct (wf_sids_nodup_lt _ Hwf) as [Nd Inc]. revert Hc'.
  destruct (step_cases c now st o) as [l' e d Hi Hd Hl|Hd|Hp|sid Hb|sid Hlt|copy o Hk| | | |o r _];
    try contradiction; intros Hc'.
  - (* a reuse takes one live entry out of the map *)
    assert (L : (live_cnt (p_closed st) l' + 1 = live_cnt (p_closed st) (p_idle st))%nat).
    { rewrite Hi, live_cnt_app, live_cnt_cons, Hl, (live_cnt_dead _ _ Hd). lia. }
    unfold p_active. constructor; [assumption| | |]; cbn; lia.
  - pose proof (live_cnt_dead _ _ Hd) as L.
    unfold p_active. constructor; [assumption| | |]; cbn; change (live_cnt (p_closed st) []) with 0%nat; lia.
  - (* a new session is live, in the map, and no other flag changes *)
    assert (Lm : live_cnt (pupd (p_closed st) (p_n st) false)
                   (bt_insert {| e_seq := p_nextseq st; e_sid := p_n st; e_since := now |} (p_idle st))
                 = (live_cnt (p_closed st) (p_idle st) + 1)%nat).
    { rewrite bt_insert_fresh by (cbn; exact Hfr).
      rewrite live_cnt_app, live_cnt_cons. cbn [e_sid]. rewrite pupd_same.
      change (live_cnt (pupd (p_closed st) (p_n st) false) []) with 0%nat. rewrite !live_cnt_as_cnt.
      rewrite (cnt_ext (pupd (p_closed st) (p_n st) false) (p_closed st)); [lia|].
      intros j Hj. apply pupd_other. apply Inc, in_seq in Hj. lia. }
    assert (Ll : cnt (pupd (p_closed st) (p_n st) false) (seq 0 (S (p_n st)))
                 = (cnt (p_closed st) (seq 0 (p_n st)) + 1)%nat).
    { rewrite seq_S, cnt_app, cnt_cons. cbn [plus]. rewrite pupd_same.
      rewrite (cnt_ext (pupd (p_closed st) (p_n st) false) (p_closed st)); [reflexivity|].
      intros j Hj. apply pupd_other. apply in_seq in Hj. lia. }
    constructor; [assumption| | |]; cbn [p_idle p_closed p_pending p_peak p_streams p_hits p_n]; rewrite ?Lm, ?Ll; lia.
  - constructor; [assumption| | |]; cbn; lia.
  - (* a death takes the session off both counts if it was live, and off the map's count only if it was there *)
    rewrite !live_cnt_as_cnt in *.
    pose proof (cnt_close_bounds (p_closed st) sid (map e_sid (p_idle st)) Nd) as Q.
    constructor; [assumption| | |]; cbn; rewrite ?live_cnt_as_cnt; try lia.
    destruct (p_closed st sid) eqn:Ec.
    + rewrite !cnt_close_same by auto. lia.
    + pose proof (cnt_close_one (p_closed st) sid (seq 0 (p_n st)) (seq_NoDup _ _)) as Q3.
      specialize (Q3 ltac:(apply in_seq; lia) Ec). lia.
  - apply binv_tick; assumption.
  - exact B.
Qed.

(* the reach of known finding F2 on client histories: a session that sits in the idle map carries at most one
   stream, the one of the request that created it *)
Definition map_first_stream_only (st : pool) : Prop :=
  forall e, In e (p_idle st) -> (p_busy st (e_sid e) <= 1)%N.

Lemma first_only_step : forall c now st o, client_op o -> wf st ->
  map_first_stream_only st -> map_first_stream_only (fst (pool_step c now st o)).
Proof.
  intros c now st o Ho Hwf Hm. unfold map_first_stream_only in *.
  pose proof (wf_nodup _ Hwf) as Nd.
  destruct (step_cases c now st o) as [l' e0 d Hi _ _| | |sid _| |copy o Hk| | | |o r _]; try contradiction.
  - (* the session reused has left the map *)
    cbn. intros e He. rewrite Hi in Nd, Hm. rewrite map_app in Nd. cbn [map] in Nd.
    rewrite pupd_other; [apply Hm, in_or_app; left; assumption|].
    intro Heq. apply NoDup_remove_2 in Nd. apply Nd, in_or_app. left.
    rewrite <- Heq. apply in_map. assumption.
  - cbn. apply Forall_forall, bt_insert_Forall.
    + cbn. rewrite pupd_same. lia.
    + destruct Hwf as [_ Hk]. apply Forall_forall. intros e He. rewrite Forall_forall in Hk.
      rewrite pupd_other; [auto|]. destruct (Hk _ He). lia.
  - cbn. intros e He. specialize (Hm e He). unfold pupd. destruct (Nat.eqb_spec (e_sid e) sid); [subst; lia|assumption].
  - exact Hm.
  - intros e He. apply (tick_idle_incl copy c now st Hk) in He.
    destruct (reap_step_eq copy c now st) as [k [cl [_ ->]]]. cbn. auto.
  - exact Hm.
Qed.

Record client_inv (st : pool) : Prop := {
  ki_count : binv st;
  ki_complete : p_hits st = 0%N -> complete st;
  ki_first : map_first_stream_only st
}.

Lemma client_inv_run : forall c h st,
  Forall (fun x => client_op (snd x)) h -> client_inv st -> client_inv (pool_run c st h).
Proof.
  intros c h st H. apply run_ind with (2 := H). clear. intros x st Hx [B C F].
  constructor.
  - apply binv_step; assumption.
  - (* the hits are still 0 after the step, so they were 0 before it and did not change *)
    pose proof (hits_step_mono c (fst x) st (snd x)) as M. intros H0.
    apply complete_step; [exact Hx | apply B | apply C; lia | lia].
  - apply first_only_step; [exact Hx | apply B | exact F].
Qed.

Lemma client_inv_init : client_inv pool_init.
Proof. constructor; [apply binv_init|intros _ sid H; cbn in H; lia|intros e []]. Qed.

Lemma client_run : forall c h, Forall (fun x => client_op (snd x)) h -> client_inv (pool_run c pool_init h).
Proof. intros c h H. exact (client_inv_run c h _ H client_inv_init). Qed.

(* what holds of ALL live sessions: the peak plus one per reuse so far (a reused session is never put back,
   so each reuse can strand one live session outside the map: known finding F3) *)
Lemma binv_live_bound : forall st, binv st -> (N.of_nat (live st) <= p_peak st + p_hits st)%N.
Proof. intros st [_ J1 _ K]. unfold live. lia. Qed.

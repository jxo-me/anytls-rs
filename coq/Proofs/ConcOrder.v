(* ConcOrder.v -- per-task order on Model/Conc.v: the frames a task has logged (hence, by absq = lin, put on
   the wire / into the pending buffer) are, in order, exactly the frames it has submitted so far (`t_sub`,
   appended when write_frame is entered), minus the one it is still submitting. All programs, all schedules. *)
From Coq Require Import List NArith ZArith Bool.
From AnyTLS Require Import Bytes Cmd Generated Frame Conc ConcInv ConcLin ConcDeath.
Import ListNotations.

(* the frame of the write_frame call in progress that has not been logged yet *)
Definition in_hand (p : pc) : list frame :=
  match p with
  | PW0 WkPump _ => []       (* taken from the channel, write_frame not yet past its closed check: not yet submitted *)
  | PW0 _ f | PW1 _ f | PW2 _ f | PW2wait _ f | PW3 _ f => [f]
  | _ => []
  end.

Definition mine (t : tid) (l : list witem) : list frame :=
  map snd (filter (fun x => Nat.eqb (fst x) t) l).

Lemma mine_app t l1 l2 : mine t (l1 ++ l2) = mine t l1 ++ mine t l2.
Proof. unfold mine. rewrite filter_app, map_app. reflexivity. Qed.
Lemma mine_self t f : mine t [(t, f)] = [f].
Proof. unfold mine. cbn. rewrite Nat.eqb_refl. reflexivity. Qed.
Lemma mine_other t u f : u <> t -> mine t [(u, f)] = [].
Proof. intros H. unfold mine. cbn. destruct (Nat.eqb_spec u t); [contradiction | reflexivity]. Qed.

Definition order_ok (s : state) (t : tid) : Prop :=
  mine t (lin s) ++ in_hand (pcof s t) = t_sub (tasks s t).

Lemma order_other s u s' t :
  Inv s -> step s u = Some s' -> t <> u -> order_ok s t -> order_ok s' t.
Proof.
  intros HI H Hne O. unfold order_ok in *.
  rewrite (step_bystander _ tr_sub s u s' t H Hne), <- O.
  assert (mine t (lin s') = mine t (lin s)) as EL.
  { destruct (step_lin_point s u s' H) as [E|(k & f & _ & E)]; rewrite E; [reflexivity|].
    rewrite mine_app, mine_other by (intros X; apply Hne; symmetry; exact X). apply app_nil_r. }
  rewrite EL. f_equal.
  destruct (step_others s u s' HI H t Hne) as [E|k f A B _|a k A B _ _|_ A _ [B|B]|A _ _ [B|[f B]]];
    try (rewrite E; reflexivity); rewrite A, B; reflexivity.
Qed.

(* on an open session a move keeps the frame in hand until it is logged; a frame enters the hand as it is submitted *)
Lemma move_hand s t p prog q prog' :
  move s t p prog q prog' -> closed s = false -> mine t (logged t p) ++ in_hand q = in_hand p ++ submitted p q.
Proof. intros M C. destruct M; try destruct k; cbn [logged]; rewrite ?mine_self; first [reflexivity | congruence]. Qed.

Lemma order_self s t s' :
  step s t = Some s' -> closed s' = false -> order_ok s t -> order_ok s' t.
Proof.
  intros H C' O. destruct (step_ledger s t s' H) as [Sb L].
  unfold order_ok in *. rewrite Sb, L, mine_app, <- O, <- !app_assoc. f_equal.
  exact (move_hand s t _ _ _ _ (step_self s t s' H) (open_back s t s' H C')).
Qed.

Lemma mine_none t l : Forall (fun x : witem => fst x <> t) l -> mine t l = [].
Proof.
  induction 1 as [|x l Hx _ IH]; [reflexivity|].
  change (x :: l) with ([x] ++ l). rewrite mine_app, IH, app_nil_r.
  destruct x as [u f]. apply mine_other. exact Hx.
Qed.

Lemma order_init progs buf pend t :
  Forall (fun x => fst x <> t) pend -> order_ok (init progs buf pend) t.
Proof.
  intros H. unfold order_ok, pcof. cbn [lin init tasks t_pc idle_task in_hand t_sub]. rewrite app_nil_r.
  apply mine_none. exact H.
Qed.

Theorem run_order progs buf pend sched t :
  Forall (fun x => fst x <> t) pend ->
  let s := run (init progs buf pend) sched in
  closed s = false -> mine t (lin s) ++ in_hand (pcof s t) = t_sub (tasks s t).
Proof.
  intros Hp. apply (run_invariant_open (fun s => order_ok s t)); [| apply inv_init | apply order_init; exact Hp].
  intros s1 u s2 HI O H C. destruct (Nat.eq_dec t u) as [->|Hne]; [eapply order_self | eapply order_other]; eauto.
Qed.

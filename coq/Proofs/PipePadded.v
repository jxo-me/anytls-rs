(* PipePadded.v -- composition of C04 (padding) with C01 (byte pipe): the padded wire a client session
   produces for any grouping of its submitted frames into packets satisfies the wire hypothesis of C01_pipe. *)
From Coq Require Import List NArith ZArith Bool.
From AnyTLS Require Import Bytes BytesFacts Cmd Generated Frame Padding PaddingProofs Session.
Import ListNotations.
Import Sess.

Lemma filter_not_padding_waste ns : filter not_padding (map waste_f ns) = [].
Proof. induction ns as [|n ns IH]; [reflexivity | exact IH]. Qed.

Lemma filter_expected pk : forall nss,
  length nss = length pk ->
  Forall (fun dfs => Forall (fun f => not_padding f = true) (snd dfs)) pk ->
  filter not_padding (expected_frames pk nss) = concat (map snd pk).
Proof.
  unfold expected_frames.
  induction pk as [|[d fs] pk IH]; intros nss Hl Hn.
  - destruct nss; [reflexivity | discriminate].
  - destruct nss as [|ns nss]; [discriminate|]. inversion Hn as [|? ? Hfs Hn']; subst.
    cbn [combine map concat fst snd]. rewrite !filter_app, filter_not_padding_waste, app_nil_r.
    cbn [snd] in Hfs. rewrite (filter_all_true _ _ Hfs). f_equal. apply IH; [cbn in Hl; congruence | exact Hn'].
Qed.

Theorem padded_wire_ok pads sc (pk : list (list Z * list frame)) c :
  Forall (fun dfs => frames_ok (snd dfs)) pk ->
  pkts_ok pads sc c (to_pkts pk) ->
  Forall (fun dfs => Forall (fun f => not_padding f = true) (snd dfs)) pk ->
  exists bursts gs,
    run_packets pads sc c (to_pkts pk) = map Writes bursts /\
    decode_all (concat (map (@concat N) bursts)) = (gs, []) /\
    filter not_padding gs = concat (map snd pk).
Proof.
  intros Hf Hok Hn.
  destruct (session_wire pads sc pk c Hf Hok) as (bursts & nss & E & Hl & _ & _ & D).
  exists bursts, (expected_frames pk nss). split; [exact E | split; [exact D|]].
  apply filter_expected; assumption.
Qed.

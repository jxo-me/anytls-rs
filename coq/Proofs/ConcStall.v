(* ConcStall.v -- the stalled transport (known finding F4) inside the interleaving model Model/Conc.v.
   `stalled s`: the peer has stopped reading, every transport write and every shutdown stays pending (CStall).
   `writer.write_all(..).await` in write_frame is not bounded by any timer, and it runs under the writer mutex:
     1. as long as the transport has not stalled, nothing in the model can block while it holds a session lock
        (no_deadlock_live: the statement the property asks for);
     2. once a write is inside the stalled transport (`wedged`), that is for ever, under every schedule: the
        holder never moves, the lock is never released, the transport is never shut down, and every task queued
        on the writer mutex -- every close(), whatever its cause, included -- stays queued for ever
        (wedged_forever: the finding, for all programs and schedules, not one sampled run). *)
From Coq Require Import List NArith ZArith Bool.
From AnyTLS Require Import Bytes Cmd Generated Frame Conc ConcInv ConcDeath.
Import ListNotations.

Theorem no_deadlock_live s t :
  Inv s -> stalled s = false ->
  finished s t \/ (awaits_peer s t \/ awaits_app s t) \/ step s t <> None \/
  (waits_pc (pcof s t) = true /\ exists h, wr s = Some h /\ step s h <> None).
Proof.
  intros HI St. destruct (no_deadlock s t HI) as [A|[A|[A|[(W & h & E & [B|(B & _)])|(B & _)]]]]; auto.
  - right; right; right. split; [exact W|]. exists h. split; assumption.
  - congruence.
  - congruence.
Qed.

Definition wedged (s : state) (h : tid) : Prop := wr s = Some h /\ in_transport s h.

Lemma wedged_holder_stuck s h : wedged s h -> step s h = None.
Proof.
  intros (_ & St & Sh & k & held & P). unfold step. unfold pcof in P. rewrite P, St, Sh. reflexivity.
Qed.

(* whoever steps is not the holder, so it hands the lock to nobody: the holder and the queued tasks keep their pcs,
   and the invariant of the new state puts them where they were; on a stalled transport no shutdown attempt succeeds *)
Theorem wedged_step s h t s' :
  Inv s -> wedged s h -> step s t = Some s' ->
  wedged s' h /\ forall w, In w (waiters s) -> In w (waiters s') /\ pcof s' w = pcof s w.
Proof.
  intros HI W H.
  assert (t <> h) as Hth.
  { intros ->. rewrite (wedged_holder_stuck s h W) in H. discriminate. }
  destruct W as (Ewr & St & Sh & k & held & P).
  assert (Inv s') as HI' by (eapply step_inv; eauto).
  assert (holds_pc (pcof s t) = false) as Nh.
  { destruct (holds_pc (pcof s t)) eqn:E; [|reflexivity]. apply (inv_holder s HI) in E. congruence. }
  destruct (step_flags s t s' H) as [_ (St' & _ & Sh')].
  split.
  - assert (pcof s' h = pcof s h) as P'.
    { apply (other_self_moved s t s' h HI H); [intros E; apply Hth; symmetry; exact E | rewrite P; reflexivity]. }
    split; [apply (inv_holder s' HI'); rewrite P', P; reflexivity|].
    split; [exact (St' St) | split; [destruct Sh' as [E|[E _]]; congruence | exists k, held; rewrite P'; exact P]].
  - intros w Hw.
    assert (waits_pc (pcof s w) = true) as W1 by (apply (inv_wait s HI); exact Hw).
    assert (w <> t) as Hwt.
    { intros ->. revert W1. (* no move starts in the queue *) destruct (step_self s t s' H); discriminate. }
    assert (pcof s' w = pcof s w) as E.
    { destruct (step_others s t s' HI H w Hwt) as [E|k' f' _ _ X|a k' _ _ _ X|_ A _ _|A _ _ _];
        [exact E | congruence | congruence | rewrite A in W1; discriminate | rewrite A in W1; discriminate]. }
    split; [apply (inv_wait s' HI'); rewrite E; exact W1 | exact E].
Qed.

Theorem wedged_forever sched : forall s h,
  Inv s -> wedged s h ->
  let s' := run s sched in
  wedged s' h /\ forall w, In w (waiters s) -> In w (waiters s') /\ pcof s' w = pcof s w.
Proof.
  intros s h HI W.
  apply (run_invariant (fun s' => wedged s' h /\ forall w, In w (waiters s) -> In w (waiters s') /\ pcof s' w = pcof s w));
    [|exact HI | split; [exact W | auto]].
  intros s1 t s2 HI1 (W1 & K1) H. destruct (wedged_step s1 h t s2 HI1 W1 H) as (W2 & K2). split; [exact W2|].
  intros w Hw. destruct (K1 w Hw) as (A & B). destruct (K2 w A) as (C & D). split; [exact C | rewrite D; exact B].
Qed.

(* what this means for the property: the session can be closed -- by its owner, by the receive task on EOF, an
   error or an Alert, by the liveness monitor -- and that close() never returns: it is in the lock queue for ever,
   the transport is never shut down, and the tasks queued behind it (writers that would get their error, other
   closers) are never released *)
Corollary wedged_close_never_returns s h w a k sched :
  Inv s -> wedged s h -> pcof s w = PC2wait a k ->
  let s' := run s sched in
  pcof s' w = PC2wait a k /\ shut s' = false /\ ~ quiescent_close s' /\ ~ finished s' w.
Proof.
  intros HI W P s'.
  assert (In w (waiters s)) as Hw by (apply (inv_wait s HI); rewrite P; reflexivity).
  destruct (wedged_forever sched s h HI W) as ((_ & _ & Sh & _) & K). fold s' in Sh, K.
  destruct (K w Hw) as (_ & E). rewrite P in E.
  split; [exact E | split; [exact Sh | split]].
  - intros Q. specialize (Q w). rewrite E in Q. discriminate.
  - intros (F & _). congruence.
Qed.

Corollary wedged_writer_never_returns s h w k f sched :
  Inv s -> wedged s h -> pcof s w = PW2wait k f ->
  pcof (run s sched) w = PW2wait k f.
Proof.
  intros HI W P.
  assert (In w (waiters s)) as Hw by (apply (inv_wait s HI); rewrite P; reflexivity).
  destruct (wedged_forever sched s h HI W) as (_ & K). destruct (K w Hw) as (_ & E). rewrite E. exact P.
Qed.

(* what the stalled transport does NOT block: once close() has done its drain (nobody is between the flag and
   the drain), the tables hold late entries only and every stream handle's queue is closed -- whether or not the
   close() that drained is now stuck on the writer mutex behind the stalled write *)
Definition drained (s : state) : Prop := forall x, is_pc1 (pcof s x) = false.

Theorem released_after_drain sched progs buf pend :
  let s := run (init progs buf pend) sched in
  closed s = true -> drained s ->
  (forall sid u, In (sid, u) (table s) -> late_entry s sid u) /\
  (forall sid u, In (sid, u) (rtable s) -> late_entry_r s sid u) /\
  (forall u sid, t_sid (tasks s u) = Some sid -> t_rclosed (tasks s u) = true \/ in_window_r (pcof s u) sid).
Proof.
  intros s C Dn. destruct (run_death_inv sched progs buf pend) as (_ & _ & D & R). fold s in D, R.
  destruct (D C) as [[x A]|[T1 T2]]; [rewrite Dn in A; discriminate|].
  split; [exact T1 | split; [exact T2 | exact (readers_of_late s R T2)]].
Qed.

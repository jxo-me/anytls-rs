(* ConcLin.v -- C11 core: on a transport that has not failed, what reaches the wire is exactly the
   linearisation log, in order (nothing dropped, duplicated, reordered or interleaved), for all
   programs and all schedules; packets are numbered in transport order. *)
From Coq Require Import List NArith ZArith Lia Bool.
From AnyTLS Require Import Bytes Cmd Generated Frame Conc ConcInv.
Import ListNotations.

Definition held_of (p : pc) : list witem := match p with PW4 _ h => h | _ => [] end.
Definition inflight (s : state) : list witem :=
  match wr s with Some t => held_of (pcof s t) | None => [] end.
Definition absq (s : state) : list witem := flat_wire s ++ inflight s ++ pending s.
Definition calm (s : state) : Prop := failing s = false /\ shut s = false.

Definition data_same (s s' : state) : Prop :=
  wire s' = wire s /\ pending s' = pending s /\ lin s' = lin s /\ pkt s' = pkt s.
Definition holders_kept (s s' : state) : Prop :=
  forall t', holds_pc (pcof s t') = true -> pcof s' t' = pcof s t'.

Inductive step_class (s : state) (t : tid) (s' : state) : Prop :=
| SC_boring : data_same s s' -> wr s' = wr s -> holders_kept s s' -> step_class s t s'
| SC_lin1 : forall k f, pcof s t = PW1 k f ->
    wire s' = wire s -> pkt s' = pkt s -> pending s' = pending s ++ [(t, f)] -> lin s' = lin s ++ [(t, f)] ->
    wr s' = wr s -> holders_kept s s' -> step_class s t s'
| SC_acquire : forall k f, wr s = None -> wr s' = Some t -> pcof s' t = PW3 k f -> data_same s s' -> step_class s t s'
| SC_take : forall k f, pcof s t = PW3 k f -> wr s = Some t -> wr s' = Some t ->
    pcof s' t = PW4 k (pending s ++ [(t, f)]) -> pending s' = [] -> lin s' = lin s ++ [(t, f)] ->
    wire s' = wire s -> pkt s' = pkt s -> step_class s t s'
| SC_write_ok : forall k held, pcof s t = PW4 k held -> wr s = Some t ->
    failing s = false -> shut s = false ->
    wire s' = wire s ++ [((pkt s + 1)%N, held)] -> pkt s' = (pkt s + 1)%N ->
    pending s' = pending s -> lin s' = lin s ->
    (forall w, wr s' = Some w -> exists k' f', pcof s' w = PW3 k' f') -> step_class s t s'
| SC_write_fail : forall k held, pcof s t = PW4 k held -> (failing s || shut s = true) ->
    wire s' = wire s -> pkt s' = (pkt s + 1)%N -> pending s' = pending s -> lin s' = lin s -> step_class s t s'.

Lemma data_of_framed a s s' :
  framed a s' -> wire a = wire s -> pending a = pending s -> lin a = lin s -> pkt a = pkt s -> data_same s s'.
Proof. intros F A B C D. unfold data_same. rewrite <- A, <- B, <- C, <- D. repeat split; apply F. Qed.

Lemma release_ws_holder ws : forall s w,
  wr (release_ws ws s) = Some w -> exists k f, pcof (release_ws ws s) w = PW3 k f.
Proof.
  induction ws as [|x ws IH]; intros s w; cbn [release_ws].
  - cbn. discriminate.
  - destruct (t_pc (tasks s x)) eqn:E; try (cbn; discriminate).
    + cbn [wr set_pc set_task set_tasks set_lock]. intros H. inversion H; subst.
      exists k, f. rewrite pcof_set_pc_lock, Nat.eqb_refl. reflexivity.
    + apply IH.
Qed.

Lemma hk_refl s : holders_kept s s. Proof. intros t' _. reflexivity. Qed.

(* a step that stays clear of the lock moves no holder: neither the stepper nor a task it sets going held it *)
Lemma off_lock_holders s t s' : off_lock s t s' -> holders_kept s s'.
Proof.
  intros L u Hu. destruct (Nat.eq_dec u t) as [->|Hne].
  - destruct (neutral_not_holds _ (ol_from _ _ _ L) Hu).
  - destruct (ol_others _ _ _ L u Hne) as [E|M]; [exact E|].
    destruct (neutral_not_holds _ (proj1 (moved_neutral s t u _ M)) Hu).
Qed.

Lemma boring_pcu s s' t p :
  pc_update s s' t p -> neutral (pcof s t) = true -> data_same s s' -> step_class s t s'.
Proof.
  intros (W & _ & _ & O) N D. apply SC_boring; [exact D | exact W|].
  intros u Hu. apply O. intros ->. exact (neutral_not_holds _ N Hu).
Qed.

Theorem step_classify s t s' : Inv s -> step s t = Some s' -> step_class s t s'.
Proof.
  intros HI H.
  assert (holds_pc (pcof s t) = true -> wr s = Some t) as Hold by apply (inv_holder s HI).
  destruct (step_shape_of s t s' H) as [Sh|k f P W ->|q Q W ->|k f P ->|k held P _ Efl ->|k held P _ Efl ->].
  - pose proof (off_shape_lock s t s' Sh) as L.
    assert (data_same s s' -> step_class s t s') as Boring.
    { intros D. apply SC_boring; [exact D | apply (ol_wr _ _ _ L) | apply (off_lock_holders s t s' L)]. }
    destruct Sh as [_ _ _ _ _ _ E|s1 a k B ->|ev rest _ _ _ ->|d sid rest _ _ _ ->|a k _ ->].
    + destruct E as [_ _ F|? ? _ _ _ F|_ _ F|_ _ _ _ F|? ? ? _ _ _ _ _ F|k f P F|_ F|? _ F];
        try (apply Boring, (data_of_framed _ s s' F); reflexivity).
      apply (SC_lin1 s t s' k f P).
      * apply (fr_wire F).
      * apply (fr_pkt F).
      * apply (fr_pending F).
      * apply (fr_lin F).
      * apply (ol_wr _ _ _ L).
      * apply (off_lock_holders s t s' L).
    + apply Boring. destruct (begun_framed s t a k s1 B). apply (data_of_framed _ s _ (framed_enter_close s1 t a k)); assumption.
    + apply Boring, (data_of_framed _ s _ (framed_feed_step (popped s t rest) t ev)); reflexivity.
    + apply Boring, (data_of_framed _ s _ (framed_push_step (popped s t rest) t (psh_frame sid d))); reflexivity.
    + apply Boring, (data_of_framed _ s _ (framed_drain_step s t (PC2 a k))); reflexivity.
  - apply (SC_acquire s t _ k f W); [reflexivity | rewrite pcof_set_pc_lock, Nat.eqb_refl; reflexivity | repeat split; reflexivity].
  - apply SC_boring; [repeat split; reflexivity | reflexivity|].
    intros t' Ht'. rewrite pcof_set_pc_lock. destruct (Nat.eqb_spec t' t) as [->|_]; [|reflexivity].
    destruct (neutral_not_holds _ (proj1 (queued_pcs _ _ Q)) Ht').
  - rewrite P in Hold. apply (SC_take s t _ k f P); try reflexivity; [exact (Hold eq_refl) | exact (Hold eq_refl)|].
    unfold pcof. cbn. rewrite upd_same. reflexivity.
  - pose proof (framed_write_fail s t (PE0 AfterIoErr k) (pkt s + 1)%N (wire s)) as F.
    exact (SC_write_fail s t _ k held P Efl (fr_wire F) (fr_pkt F) (fr_pending F) (fr_lin F)).
  - pose proof (framed_write_ok s t k (pkt s + 1)%N (wire s ++ [((pkt s + 1)%N, held)])) as F.
    apply orb_false_elim in Efl. destruct Efl as [Ef Es].
    rewrite P in Hold.
    apply (SC_write_ok s t _ k held P (Hold eq_refl) Ef Es (fr_wire F) (fr_pkt F) (fr_pending F) (fr_lin F)).
    destruct (release_write s t (pkt s + 1)%N (wire s ++ [((pkt s + 1)%N, held)]) HI) as [R _]; [rewrite P; reflexivity|].
    pose proof (rl_not_holder _ _ _ R) as R5.
    destruct (pcu_finish_w (release (set_wire s (pkt s + 1)%N (wire s ++ [((pkt s + 1)%N, held)]))) t k ResOk) as (U1 & _ & _ & U4).
    intros w Hw. rewrite U1 in Hw. unfold release in *. rewrite U4 by congruence. apply release_ws_holder. exact Hw.
Qed.

Lemma calm_back s t s' : step s t = Some s' -> calm s' -> calm s.
Proof.
  intros H [A B]. destruct (step_flags s t s' H) as (_ & _ & Fl & Sh). split.
  - destruct (failing s); [rewrite Fl in A by reflexivity; discriminate | reflexivity].
  - destruct Sh as [Sh|[_ Sh]]; congruence.
Qed.

Definition lin_ok (s : state) : Prop := calm s -> absq s = lin s.

Lemma inflight_same s s' :
  Inv s -> wr s' = wr s -> holders_kept s s' -> inflight s' = inflight s.
Proof.
  intros HI W H. unfold inflight. rewrite W. destruct (wr s) as [h|] eqn:E; [|reflexivity].
  rewrite H; [reflexivity|]. apply (inv_holder s HI). exact E.
Qed.

Theorem step_lin_ok s t s' : Inv s -> lin_ok s -> step s t = Some s' -> lin_ok s'.
Proof.
  intros HI L H C'. pose proof (calm_back s t s' H C') as C. specialize (L C).
  unfold absq, flat_wire in *.
  destruct (step_classify s t s' HI H) as
      [(D1 & D2 & D3 & D4) W Hk
      | k f Ep D1 D4 D2 D3 W Hk
      | k f W0 W1 Ep (D1 & D2 & D3 & D4)
      | k f Ep W0 W1 Ep' D2 D3 D1 D4
      | k held Ep W0 Ef Es D1 D4 D2 D3 Hn
      | k held Ep Efl D1 D4 D2 D3].
  - rewrite D1, D2, D3, (inflight_same s s' HI W Hk). exact L.
  - rewrite D1, D2, D3, (inflight_same s s' HI W Hk), <- L. rewrite !app_assoc. reflexivity.
  - rewrite D1, D2, D3. unfold inflight in *. rewrite W1, Ep. rewrite W0 in L. exact L.
  - rewrite D1, D2, D3. unfold inflight in *. rewrite W1, Ep'. rewrite W0, Ep in L. cbn [held_of] in *.
    rewrite <- L. cbn [app]. rewrite app_nil_r, !app_assoc. reflexivity.
  - rewrite D1, D2, D3. unfold inflight in *. rewrite W0, Ep in L. cbn [held_of] in L.
    rewrite map_app, concat_app. cbn [map concat snd]. rewrite app_nil_r.
    assert (match wr s' with Some t0 => held_of (pcof s' t0) | None => [] end = []) as E.
    { destruct (wr s') as [w|] eqn:Ew; [|reflexivity]. destruct (Hn w eq_refl) as (k' & f' & Ew'). rewrite Ew'. reflexivity. }
    rewrite E. cbn [app]. rewrite <- L, <- !app_assoc. reflexivity.
  - destruct C as [Cf Cs]. rewrite Cf, Cs in Efl. discriminate.
Qed.

Lemma lin_ok_init progs buf pend : lin_ok (init progs buf pend).
Proof. intros _. reflexivity. Qed.

Theorem run_lin_ok sched : forall s, Inv s -> lin_ok s -> lin_ok (run s sched).
Proof. apply run_invariant. intros s t s' HI L H. eapply step_lin_ok; eauto. Qed.

(* the frame a task adds to the log is the frame of the write_frame call it is executing *)
Theorem step_lin_point s t s' :
  step s t = Some s' ->
  lin s' = lin s \/
  exists k f, (pcof s t = PW1 k f \/ pcof s t = PW3 k f) /\ lin s' = lin s ++ [(t, f)].
Proof.
  intros H. destruct (step_ledger s t s' H) as [_ L]. rewrite L.
  destruct (pcof s t); cbn [logged]; try (left; apply app_nil_r); right; eauto.
Qed.

Lemma lin_kept s t s' e : step s t = Some s' -> In e (lin s) -> In e (lin s').
Proof. intros H Hin. rewrite (proj2 (step_ledger s t s' H)). apply in_or_app. left. exact Hin. Qed.

Theorem run_lin_grows sched : forall s, Inv s -> exists l, lin (run s sched) = lin s ++ l.
Proof.
  intros s HI. apply (run_invariant (fun s' => exists l, lin s' = lin s ++ l)); [|exact HI | exists []; symmetry; apply app_nil_r].
  intros s1 t s2 _ [l E] H. exists (l ++ logged t (pcof s1 t)).
  rewrite (proj2 (step_ledger s1 t s2 H)), E, app_assoc. reflexivity.
Qed.

(* the transport changes only by the holder's write, which takes the next packet number whether or not it succeeds *)
Lemma step_transport s t s' :
  Inv s -> step s t = Some s' ->
  (wire s' = wire s /\ pkt s' = pkt s) \/
  exists k held, pcof s t = PW4 k held /\ pkt s' = (pkt s + 1)%N /\
    (wire s' = wire s ++ [((pkt s + 1)%N, held)] \/ wire s' = wire s /\ failing s || shut s = true).
Proof.
  intros HI H.
  destruct (step_classify s t s' HI H) as
      [(Wi & _ & _ & Pk) _ _ | k f _ Wi Pk _ _ _ _ | k f _ _ _ (Wi & _ & _ & Pk)
      | k f _ _ _ _ _ _ Wi Pk | k held Ep _ _ _ Wi Pk _ _ _ | k held Ep Efl Wi Pk _ _];
    [left; split; assumption .. | right; exists k, held | right; exists k, held]; auto.
Qed.

(* bursts reach the wire whole, only from the lock holder *)
Theorem step_wire s t s' :
  Inv s -> step s t = Some s' ->
  wire s' = wire s \/
  exists k held, pcof s t = PW4 k held /\ wr s = Some t /\ wire s' = wire s ++ [((pkt s + 1)%N, held)].
Proof.
  intros HI H.
  destruct (step_transport s t s' HI H) as [[W _]|(k & held & Ep & _ & [W|[W _]])]; [left; exact W | | left; exact W].
  right. exists k, held. split; [exact Ep | split; [|exact W]]. apply (inv_holder s HI). rewrite Ep. reflexivity.
Qed.

Definition idx_ok (p0 : N) (s : state) : Prop :=
  calm s -> pkt s = (p0 + lenN (wire s))%N /\
            forall n i h, nth_error (wire s) n = Some (i, h) -> i = (p0 + N.of_nat n + 1)%N.

Theorem step_idx_ok p0 s t s' : Inv s -> idx_ok p0 s -> step s t = Some s' -> idx_ok p0 s'.
Proof.
  intros HI L H C'. pose proof (calm_back s t s' H C') as C. destruct (L C) as [L1 L2].
  destruct (step_transport s t s' HI H) as [[D1 D4]|(k & held & _ & D4 & [D1|[_ Efl]])].
  - rewrite D1, D4. split; assumption.
  - rewrite D1, D4. split.
    + rewrite L1. unfold lenN. rewrite app_length. cbn [length]. rewrite Nat2N.inj_add, N.add_assoc. reflexivity.
    + intros n i h Hn'. destruct (Nat.lt_ge_cases n (length (wire s))) as [Hlt|Hge].
      * rewrite nth_error_app1 in Hn' by exact Hlt. eapply L2; eauto.
      * rewrite nth_error_app2 in Hn' by exact Hge.
        destruct (n - length (wire s))%nat as [|m] eqn:Em; cbn [nth_error] in Hn'.
        -- inversion Hn'; subst. rewrite L1. unfold lenN. assert (n = length (wire s)) as -> by lia. lia.
        -- destruct m; discriminate.
  - destruct C as [Cf Cs]. rewrite Cf, Cs in Efl. discriminate.
Qed.

Lemma idx_ok_init progs buf pend : idx_ok client_pkt_start (init progs buf pend).
Proof.
  intros _. split; [cbn [pkt wire init]; unfold lenN; cbn [length N.of_nat]; symmetry; apply N.add_0_r|].
  intros n i h Hn. destruct n; discriminate.
Qed.

Theorem run_idx_ok p0 sched : forall s, Inv s -> idx_ok p0 s -> idx_ok p0 (run s sched).
Proof. apply run_invariant. intros s t s' HI L H. eapply step_idx_ok; eauto. Qed.

Theorem settings_first progs x pend sched :
  let s := run (init progs true (x :: pend)) sched in
  calm s -> forall y rest, flat_wire s = y :: rest -> y = x.
Proof.
  intros s C y rest E.
  pose proof (run_lin_ok sched _ (inv_init progs true (x :: pend)) (lin_ok_init progs true (x :: pend)) C) as L.
  destruct (run_lin_grows sched _ (inv_init progs true (x :: pend))) as [l G].
  fold s in L, G. unfold absq in L. rewrite E, G in L. cbn in L. inversion L. reflexivity.
Qed.

(* the second half of idx_ok, from the initial state: bursts reach the transport in the order of their numbers *)
Theorem packet_order progs buf pend sched n i h :
  let s := run (init progs buf pend) sched in
  calm s -> nth_error (wire s) n = Some (i, h) -> i = (client_pkt_start + N.of_nat n + 1)%N.
Proof.
  intros s C.
  destruct (run_idx_ok client_pkt_start sched _ (inv_init progs buf pend) (idx_ok_init progs buf pend) C) as [_ Hnth].
  apply Hnth.
Qed.

(* HeartbeatProofs.v -- the liveness monitor of Model/Heartbeat.v (the repaired rule: a deadline per outstanding
   keep-alive request) over arbitrary event traces -- the tick instants are not even assumed periodic, so every
   (interval, timeout) pair is covered --, the scripted-peer simulation the correspondence check executes, and the
   monitor whose own write may never return (Model/HeartbeatStall.v). *)
From Coq Require Import List NArith ZArith Bool Lia Sorting.Sorted.
From AnyTLS Require Import Generated Heartbeat HeartbeatStall.
Import ListNotations.
Open Scope Z_scope.

Lemma hb_due_eq : forall T s t, hb_due T s t = (T <=? t - s).
Proof. reflexivity. Qed.

(* what an open monitor does with an event once no deadline has passed *)
Definition hb_next (st : hb) (e : hbev) : hb :=
  match e with
  | HTick t => {| hb_out := match hb_out st with None => Some t | o => o end;
                  hb_closed := None; hb_sent := t :: hb_sent st |}
  | HResp _ => {| hb_out := None; hb_closed := None; hb_sent := hb_sent st |}
  end.

Lemma hb_step_eq : forall T st e,
  hb_step T st e =
  let st1 := hb_expire T st (hbev_time e) in
  match hb_closed st1 with Some _ => st1 | None => hb_next st1 e end.
Proof. intros T st [t|a]; reflexivity. Qed.

Global Opaque hb_due hb_step.

Lemma hb_run_cons : forall T st e evs, hb_run T st (e :: evs) = hb_run T (hb_step T st e) evs.
Proof. reflexivity. Qed.

Lemma expire_idle : forall T st t,
  hb_closed st = None -> (forall s, hb_out st = Some s -> t < s + T) -> hb_expire T st t = st.
Proof.
  intros T st t Hc Ho. unfold hb_expire. rewrite Hc. destruct (hb_out st) as [s|]; [|reflexivity].
  rewrite hb_due_eq. specialize (Ho s eq_refl). destruct (Z.leb_spec T (t - s)); [lia|reflexivity].
Qed.

Lemma hb_step_idle : forall T st e,
  hb_closed st = None -> (forall s, hb_out st = Some s -> hbev_time e < s + T) -> hb_step T st e = hb_next st e.
Proof. intros T st e Hc Ho. rewrite hb_step_eq. cbv zeta. rewrite expire_idle, Hc by assumption. reflexivity. Qed.

Lemma hb_step_open : forall T st e, hb_closed st = None ->
  (exists s, hb_out st = Some s /\ T <= hbev_time e - s /\
             hb_step T st e = {| hb_out := Some s; hb_closed := Some (s + T); hb_sent := hb_sent st |}) \/
  ((forall s, hb_out st = Some s -> hbev_time e < s + T) /\ hb_step T st e = hb_next st e).
Proof.
  intros T st e Hc.
  destruct (hb_out st) as [s|] eqn:Eo; [destruct (Z.leb_spec T (hbev_time e - s)) as [Hd|Hd]|].
  - left. exists s. repeat split; [assumption|]. rewrite hb_step_eq. unfold hb_expire.
    rewrite Hc, Eo, hb_due_eq. rewrite (proj2 (Z.leb_le _ _) Hd). reflexivity.
  - right. assert (forall s0, Some s = Some s0 -> hbev_time e < s0 + T) as Ho by (intros s0 [= <-]; lia).
    split; [exact Ho|]. apply hb_step_idle; [assumption|]. rewrite Eo. exact Ho.
  - right. split; [discriminate|]. apply hb_step_idle; [assumption|]. rewrite Eo. discriminate.
Qed.

Lemma closed_sticky_step : forall T st e c, hb_closed st = Some c -> hb_step T st e = st.
Proof. intros T st e c H. rewrite hb_step_eq. unfold hb_expire. rewrite H. cbn. rewrite H. reflexivity. Qed.

(* the request sent at s: before anything happens at or after its deadline s + T, an answer arrives
   (or the observation ends) *)
Fixpoint answered (T s : Z) (post : list hbev) : Prop :=
  match post with
  | [] => True
  | HResp a :: _ => a < s + T
  | HTick t :: r => t < s + T /\ answered T s r
  end.

Fixpoint in_time (T : Z) (evs : list hbev) : Prop :=
  match evs with
  | [] => True
  | HTick s :: post => answered T s post /\ in_time T post
  | HResp _ :: post => in_time T post
  end.

Lemma run_no_close : forall T evs st,
  hb_closed st = None -> (forall s, hb_out st = Some s -> answered T s evs) -> in_time T evs ->
  hb_closed (hb_run T st evs) = None.
Proof.
  intros T evs. induction evs as [|e evs IH]; intros st Hc Ho Hi; [exact Hc|].
  rewrite hb_run_cons.
  rewrite hb_step_idle; [|assumption|].
  2: { intros s Hs. specialize (Ho s Hs). destruct e; cbn in Ho |- *; tauto. }
  destruct e as [t|a]; cbn [in_time] in Hi.
  - (* a tick: the outstanding request stays so, or this one becomes it *)
    apply IH; [reflexivity| |tauto]. cbn [hb_next hb_out]. intros s Hs.
    destruct (hb_out st) as [s0|] eqn:Eo; injection Hs as <-; [apply (Ho _ eq_refl)|apply Hi].
  - (* an answer: nothing is outstanding after it *)
    apply IH; [reflexivity| |exact Hi]. cbn [hb_next hb_out]. intros s Hs. discriminate.
Qed.

Theorem no_false_close_trace : forall T evs,
  in_time T evs -> hb_closed (hb_run T hb_init evs) = None.
Proof.
  intros T evs H. apply run_no_close; [reflexivity| |assumption]. cbn. intros s Hs. discriminate.
Qed.

(* the same hypothesis in index form, for time-ordered traces *)
Definition sorted_ev (evs : list hbev) : Prop :=
  forall i j a b, (i <= j)%nat -> nth_error evs i = Some a -> nth_error evs j = Some b ->
    hbev_time a <= hbev_time b.

(* every keep-alive request is followed by an answer less than T after it was sent, unless the observation
   ends before that deadline *)
Definition peer_in_time (T : Z) (evs : list hbev) : Prop :=
  forall i s, nth_error evs i = Some (HTick s) ->
    (exists j a, (i < j)%nat /\ nth_error evs j = Some (HResp a) /\ a < s + T) \/
    (forall j e, (i < j)%nat -> nth_error evs j = Some e -> hbev_time e < s + T).

Lemma answered_by : forall T s j post a,
  nth_error post j = Some (HResp a) -> a < s + T ->
  (forall m e, (m <= j)%nat -> nth_error post m = Some e -> hbev_time e <= a) ->
  answered T s post.
Proof.
  intros T s j. induction j as [|j IH]; intros post a Hn Ha Hb.
  - destruct post as [|e post]; [discriminate|]. cbn in Hn. inversion Hn; subst. cbn. assumption.
  - destruct post as [|e post]; [discriminate|]. cbn in Hn.
    pose proof (Hb 0%nat e ltac:(lia) eq_refl) as H0.
    destruct e as [t|a0]; cbn in *; [|lia]. split; [lia|].
    eapply IH; eauto. intros m e Hm He. apply (Hb (S m) e); [lia|exact He].
Qed.

Lemma answered_all_early : forall T s post,
  (forall m e, nth_error post m = Some e -> hbev_time e < s + T) -> answered T s post.
Proof.
  intros T s post. induction post as [|e post IH]; intros H; [exact I|].
  pose proof (H 0%nat e eq_refl) as H0. destruct e as [t|a]; cbn in *; [|assumption].
  split; [assumption|]. apply IH. intros m e He. exact (H (S m) e He).
Qed.

Lemma in_time_of_peer : forall T evs, sorted_ev evs -> peer_in_time T evs -> in_time T evs.
Proof.
  intros T evs. induction evs as [|e evs IH]; intros Hs Hp; [exact I|].
  assert (Hs' : sorted_ev evs).
  { intros i j a b Hij Ha Hb. exact (Hs (S i) (S j) a b ltac:(lia) Ha Hb). }
  assert (Hp' : peer_in_time T evs).
  { intros i s Hi. destruct (Hp (S i) s Hi) as [[j [a [Hj [Hn Ha]]]]|Hall].
    - destruct j as [|j]; [lia|]. left. exists j, a. repeat split; [lia|exact Hn|assumption].
    - right. intros j x Hj Hx. exact (Hall (S j) x ltac:(lia) Hx). }
  destruct e as [s|a]; cbn; [|auto]. split; [|auto].
  destruct (Hp 0%nat s eq_refl) as [[j [a [Hj [Hn Ha]]]]|Hall].
  - destruct j as [|j]; [lia|]. cbn in Hn. eapply answered_by; eauto.
    intros m e Hm He. exact (Hs (S m) (S j) e (HResp a) ltac:(lia) He Hn).
  - apply answered_all_early. intros m e He. exact (Hall (S m) e ltac:(lia) He).
Qed.

Lemma closed_sticky : forall T evs st c, hb_closed st = Some c -> hb_run T st evs = st.
Proof.
  intros T evs. induction evs as [|e evs IH]; intros st c H; [reflexivity|].
  rewrite hb_run_cons.
  rewrite (closed_sticky_step T st e c H). eapply IH; eassumption.
Qed.

Lemma run_ticks_outstanding : forall T ticks st s,
  hb_out st = Some s -> (hb_closed st = None \/ hb_closed st = Some (s + T)) ->
  let st' := hb_run T st (map HTick ticks) in
  hb_out st' = Some s /\ (hb_closed st' = None \/ hb_closed st' = Some (s + T)).
Proof.
  intros T ticks. induction ticks as [|t ticks IH]; intros st s Ho Hc; [cbn; auto|].
  cbn [map]. rewrite hb_run_cons.
  destruct Hc as [Hc|Hc].
  - destruct (hb_step_open T st (HTick t) Hc) as [(s0 & Es & _ & ->)|[_ ->]].
    + (* the deadline of s has passed at t: closed at s + T *)
      rewrite Ho in Es. injection Es as <-. apply IH; cbn; auto.
    + (* not yet: s stays outstanding *)
      apply IH; cbn; rewrite ?Ho; auto.
  - (* closed already: the step changes nothing *)
    rewrite (closed_sticky_step T st _ _ Hc). apply IH; auto.
Qed.

Lemma resp_clears : forall T st a,
  hb_closed (hb_step T st (HResp a)) = None -> hb_out (hb_step T st (HResp a)) = None.
Proof.
  intros T st a. destruct (hb_closed st) as [c|] eqn:Hc.
  - rewrite (closed_sticky_step T st _ c Hc), Hc. discriminate.
  - destruct (hb_step_open T st (HResp a) Hc) as [(s & _ & _ & ->)|[_ ->]]; [discriminate|reflexivity].
Qed.

Theorem detects : forall T st0 s1 more t,
  hb_closed st0 = None -> hb_out st0 = None -> s1 + T <= t ->
  hb_closed (hb_expire T (hb_run T st0 (map HTick (s1 :: more))) t) = Some (s1 + T).
Proof.
  intros T st0 s1 more t Hc Ho Ht.
  cbn [map]. rewrite hb_run_cons.
  rewrite hb_step_idle by (auto; intros s E; congruence).
  destruct (run_ticks_outstanding T more (hb_next st0 (HTick s1)) s1) as [Ho2 Hc2];
    [cbn; rewrite Ho; reflexivity|left; reflexivity|].
  cbv zeta in *. unfold hb_expire. destruct Hc2 as [Hc2|Hc2]; rewrite Hc2; [|exact Hc2].
  rewrite Ho2, hb_due_eq. destruct (Z.leb_spec T (t - s1)); [reflexivity|lia].
Qed.

Lemma step_close_instant : forall T st e c,
  hb_closed st = None -> hb_closed (hb_step T st e) = Some c -> exists s, hb_out st = Some s /\ c = s + T.
Proof.
  intros T st e c Hc H. destruct (hb_step_open T st e Hc) as [(s & Ho & _ & E)|[_ E]]; rewrite E in H.
  - injection H as <-. eauto.
  - destruct e; discriminate.
Qed.

Lemma step_out_origin : forall T st e s,
  hb_closed st = None -> hb_closed (hb_step T st e) = None -> hb_out (hb_step T st e) = Some s ->
  hb_out st = Some s \/ e = HTick s.
Proof.
  intros T st e s Hc H1 H. destruct (hb_step_open T st e Hc) as [(s0 & _ & _ & E)|[_ E]]; rewrite E in *; [discriminate|].
  destruct e; cbn in H; [|discriminate]. destruct (hb_out st); injection H as <-; auto.
Qed.

Lemma close_instant : forall T evs st c,
  hb_closed st = None -> hb_closed (hb_run T st evs) = Some c ->
  exists s, c = s + T /\ (hb_out st = Some s \/ In (HTick s) evs).
Proof.
  intros T evs. induction evs as [|e evs IH]; intros st c Hc H; [cbn in H; congruence|].
  rewrite hb_run_cons in H.
  destruct (hb_closed (hb_step T st e)) as [c1|] eqn:E1.
  - rewrite (closed_sticky T evs _ c1 E1) in H. rewrite E1 in H. inversion H; subst.
    destruct (step_close_instant T st e c Hc E1) as [s [? ?]]. exists s. auto.
  - destruct (IH _ c E1 H) as [s [Ec Hs]]. exists s. split; [exact Ec|].
    destruct Hs as [Hs|Hs]; [|right; right; assumption].
    destruct (step_out_origin T st e s Hc E1 Hs) as [Hq|Hq]; [left; assumption|right; left; rewrite Hq; reflexivity].
Qed.

Lemma ins_in : forall a l x, In x (hb_ins_sorted a l) <-> x = a \/ In x l.
Proof.
  intros a l. induction l as [|b l IH]; intros x; cbn.
  - split; [intros [->|[]]; auto|intros [->|[]]; auto].
  - destruct (a <? b); cbn.
    + split; [intros [->|[->|H]]; auto|intros [->|[->|H]]; auto].
    + rewrite IH. split; [intros [->|[->|H]]; auto|intros [->|[->|H]]; auto].
Qed.

Lemma ins_sorted : forall a l, StronglySorted Z.le l -> StronglySorted Z.le (hb_ins_sorted a l).
Proof.
  intros a l H. induction H as [|b l Hs IH Hf]; cbn.
  - constructor; constructor.
  - destruct (Z.ltb_spec a b).
    + constructor; [constructor; assumption|]. constructor; [lia|].
      eapply Forall_impl; [|exact Hf]. cbn. intros; lia.
    + constructor; [assumption|]. apply Forall_forall. intros x Hx. apply ins_in in Hx.
      destruct Hx as [->|Hx]; [assumption|]. rewrite Forall_forall in Hf. auto.
Qed.

(* the event the loop takes next: the earliest arrival if it is due by the next tick, else the tick *)
Lemma next_arrival : forall nt arr, StronglySorted Z.le arr ->
  match (match arr with a :: _ => if a <=? nt then Some a else None | [] => None end) with
  | Some a => a <= nt /\ In a arr /\ (forall x, In x arr -> a <= x) /\ StronglySorted Z.le (tl arr)
  | None => forall x, In x arr -> nt <= x
  end.
Proof.
  intros nt arr Hs. destruct Hs as [|a arr' Hs Hf]; [intros x []|]. rewrite Forall_forall in Hf.
  destruct (Z.leb_spec a nt) as [Hdue|Hnot].
  - repeat split; [assumption|left; reflexivity| |assumption]. intros x [->|Hx]; [lia|auto].
  - intros x [->|Hx]; [lia|]. specialize (Hf x Hx). lia.
Qed.

Section Sim.
  Variables (I T H : Z) (script : list (option Z)).
  Hypothesis answers_in_time :
    forall k, Z.of_nat k * I <= H -> exists d, nth_error script k = Some (Some d) /\ 0 <= d < T.

  (* the answer to the outstanding request is among the pending arrivals, due before its deadline *)
  Definition sim_inv (k : nat) (nt : Z) (arr : list Z) (st : hb) : Prop :=
    hb_closed st = None /\ nt = Z.of_nat k * I /\ StronglySorted Z.le arr /\
    (forall s, hb_out st = Some s -> exists a, In a arr /\ a < s + T).

  Lemma sim_loop_open : forall fuel k nt arr st,
    sim_inv k nt arr st -> hb_closed (hb_sim_loop fuel I T H script k nt arr st) = None.
  Proof.
    intros fuel. induction fuel as [|f IH]; intros k nt arr st [Hc [Hnt [Hs Ho]]]; [exact Hc|].
    cbn [hb_sim_loop]. rewrite Hc.
    (* no deadline lies before an instant that precedes every pending arrival *)
    assert (Hidle : forall t, (forall x, In x arr -> t <= x) -> forall s, hb_out st = Some s -> t < s + T).
    { intros t Ht s Es. destruct (Ho s Es) as [x [Hx Hlt]]. specialize (Ht x Hx). lia. }
    pose proof (next_arrival nt arr Hs) as N.
    destruct (match arr with a :: _ => if a <=? nt then Some a else None | [] => None end) as [a|].
    - destruct N as (Hdue & Hin & Hmin & Hs').
      destruct (Z.leb_spec a H) as [Hle|Hgt].
      + apply IH. rewrite hb_step_idle by (auto using Hidle).
        repeat split; [assumption|assumption|discriminate].
      + rewrite expire_idle; [assumption|assumption|]. apply Hidle. intros x Hx. specialize (Hmin x Hx). lia.
    - destruct (Z.leb_spec nt H) as [Hle|Hgt].
      + rewrite hb_step_idle by (auto using Hidle). cbn [hb_next hb_closed].
        destruct (answers_in_time k ltac:(lia)) as [d [-> Hdr]].
        apply IH. repeat split; cbn [hb_closed hb_out].
        * rewrite Nat2Z.inj_succ. lia.
        * apply ins_sorted. assumption.
        * intros s Hs'. destruct (hb_out st) as [s0|] eqn:E; injection Hs' as <-.
          -- destruct (Ho _ eq_refl) as [x [Hx Hlt]]. exists x. split; [apply ins_in; auto|assumption].
          -- exists (nt + d). split; [apply ins_in; auto|lia].
      + rewrite expire_idle; [assumption|assumption|]. apply Hidle. intros x Hx. specialize (N x Hx). lia.
  Qed.

  Theorem sim_no_false_close : hb_closed (hb_sim I T H script) = None.
  Proof.
    unfold hb_sim. apply sim_loop_open. repeat split; cbn; try constructor. intros s Hs. discriminate.
  Qed.
End Sim.

(* the monitor whose write may never return (hbw): while every write returns it is the monitor above, so what is
   proved of hb_run holds of it *)
Lemma hbw_step_no_stall T st e :
  w_blocked st = false -> hbw_step T st (e, false) = {| w_hb := hb_step T (w_hb st) e; w_blocked := false |}.
Proof.
  intros B. unfold hbw_step. rewrite B. cbn [fst snd].
  destruct e as [t|t]; [destruct (hb_closed (hb_step T (w_hb st) (HTick t)))|]; reflexivity.
Qed.

Lemma hbw_run_never_stalls T : forall evs st,
  w_blocked st = false ->
  hbw_run T st (map (fun e => (e, false)) evs) = {| w_hb := hb_run T (w_hb st) evs; w_blocked := false |}.
Proof.
  induction evs as [|e evs IH]; intros st B; cbn [map hbw_run hb_run fold_left].
  - destruct st as [h b]. cbn in *. subst. reflexivity.
  - rewrite (hbw_step_no_stall T st e B). unfold hbw_run, hb_run in IH. rewrite IH by reflexivity. reflexivity.
Qed.

Lemma hbw_blocked_stays T : forall evs st, w_blocked st = true -> hbw_run T st evs = st.
Proof.
  induction evs as [|e evs IH]; intros st B; [reflexivity|].
  cbn [hbw_run fold_left]. unfold hbw_step at 2. rewrite B. apply IH. exact B.
Qed.

(* the monitor is open with nothing outstanding (right after an answer), the next tick's write never returns:
   whatever happens afterwards -- any ticks, any silence, any horizon -- the session is never closed by the monitor *)
Theorem stalled_write_never_detected T st0 s more t :
  w_blocked st0 = false -> hb_closed (w_hb st0) = None -> hb_out (w_hb st0) = None ->
  hb_closed (w_hb (hbw_expire T (hbw_run T st0 ((HTick s, true) :: more)) t)) = None.
Proof.
  intros B C O. cbn [hbw_run fold_left].
  change (fold_left (hbw_step T) more (hbw_step T st0 (HTick s, true))) with (hbw_run T (hbw_step T st0 (HTick s, true)) more).
  assert (hbw_step T st0 (HTick s, true) = {| w_hb := hb_next (w_hb st0) (HTick s); w_blocked := true |}) as ->.
  { unfold hbw_step. rewrite B. cbn [fst snd]. rewrite hb_step_idle by (auto; rewrite O; discriminate). reflexivity. }
  rewrite hbw_blocked_stays by reflexivity. reflexivity.
Qed.

(* ConcTerm.v -- every task finishes its program within a bound that depends only on that program:
   no schedule, however adversarial, makes a task take more than `budget` steps. Together with
   no_deadlock (ConcDeath.v) this is "never blocks forever" for the session's own machinery. *)
From Coq Require Import List NArith ZArith Lia Bool.
From AnyTLS Require Import Bytes Cmd Generated Frame Conc ConcInv ConcDeath.
Import ListNotations.
Local Open Scope nat_scope.

Definition pcw (p : pc) : nat :=
  match p with
  | PIdle => 0 | PW0 _ _ => 7 | PW1 _ _ => 1 | PW2 _ _ => 6 | PW2wait _ _ => 5 | PW3 _ _ => 5
  | PW4 _ _ => 4 | PE0 _ _ => 3 | PC1 _ _ => 2 | PC2 _ _ => 1 | PC2wait _ _ => 0 | PO1 _ => 8
  | PO0 => 10 | PO0b _ => 9 | PPwait => 8
  end.
Definition callw (c : call) : nat :=
  match c with
  | CWrite _ | CData _ => 8 | COpen => 11 | CClose => 3 | CPump => 9
  | CFeed _ => 4      (* 1 for the call itself + 3: an injected EOF / error / Alert sets the receive task in motion (ConcFair) *)
  | _ => 1
  end.
Fixpoint progw (p : list call) : nat := match p with [] => 0 | c :: r => callw c + progw r end.
Definition mu (s : state) (t : tid) : nat := pcw (pcof s t) + progw (t_prog (tasks s t)).

Lemma tasks_release_self s t : Inv s -> wr s = Some t -> tasks (release s) t = tasks s t.
Proof.
  intros HI E. unfold release.
  destruct (release_ws_spec (waiters s) s t (leaving_of_inv s t HI E)) as [R _]. exact (rl_self _ _ _ R).
Qed.

(* every move goes down in pcw, and a call pays for the pc it enters *)
Lemma move_down s t p prog q prog' : move s t p prog q prog' -> pcw q + progw prog' < pcw p + progw prog.
Proof.
  intros M. destruct M; cbn; try lia.
  (* M_return *) destruct c; cbn; lia.
Qed.

Theorem step_self_mu s t s' : step s t = Some s' -> mu s' t < mu s t.
Proof. intros H. exact (move_down s t _ _ _ _ (step_self s t s' H)). Qed.

Theorem step_other_mu s t s' w :
  Inv s -> step s t = Some s' -> w <> t -> w <> rtid -> mu s' w <= mu s w.
Proof.
  intros HI H Hw Hr. unfold mu. rewrite (step_bystander _ tr_prog s t s' w H Hw).
  destruct (step_others s t s' HI H w Hw) as [E|k f A B _|a k A B _ _|A _ _ _|A _ _ [B|[f B]]].
  - rewrite E. lia.
  - rewrite A, B. cbn. lia.
  - rewrite A, B. cbn. lia.
  - contradiction.
  - rewrite A, B. cbn. lia.
  - rewrite A, B. cbn. lia.
Qed.

(* number of steps task t actually takes under a schedule *)
Fixpoint steps_of (t : tid) (s : state) (sched : list tid) : nat :=
  match sched with
  | [] => 0
  | u :: r =>
      match step s u with
      | Some s' => (if Nat.eqb u t then 1 else 0) + steps_of t s' r
      | None => steps_of t s r
      end
  end.

Theorem bounded_steps t : t <> rtid -> forall sched s,
  Inv s -> steps_of t s sched + mu (run s sched) t <= mu s t.
Proof.
  intros Hr. induction sched as [|u sched IH]; intros s HI.
  - cbn. lia.
  - rewrite run_cons. cbn [steps_of]. unfold step_or_skip. destruct (step s u) as [s1|] eqn:E.
    + specialize (IH s1 (step_inv s u s1 HI E)).
      destruct (Nat.eqb_spec u t) as [->|Hne].
      * pose proof (step_self_mu s t s1 E). lia.
      * pose proof (step_other_mu s u s1 t HI E (not_eq_sym Hne) Hr). lia.
    + apply IH. exact HI.
Qed.

(* in terms of the program alone: a fresh task never takes more than progw(program) steps *)
Corollary budget progs buf pend sched t :
  t <> rtid -> steps_of t (init progs buf pend) sched <= progw (nth t progs []).
Proof.
  intros Hr. pose proof (bounded_steps t Hr sched (init progs buf pend) (inv_init progs buf pend)) as B.
  unfold mu at 2 in B. cbn in B. lia.
Qed.

(* SocksProofs.v -- the SOCKS5 front-end of Model/Socks5.v (C16).  The greeting and request programs accept what
   a client encodes; session_cases and after_greeting_cases give the events of a session by the outcome of each
   program, and what is said of the selection message, the replies, the tunnel and further input is read off them. *)
From Coq Require Import List NArith ZArith Bool.
From AnyTLS Require Import Bytes Reader ReaderProg Generated Dest Socks5 ReaderProofs DestProofs.
Import ListNotations.
Open Scope N_scope.

Lemma offers_noauth_iff ms : offers_noauth ms = true <-> In 0 ms.
Proof.
  unfold offers_noauth. rewrite existsb_exists. split.
  - intros (m & Hin & Hm). apply N.eqb_eq in Hm. change socks_auth_no_authentication with 0 in Hm. subst. exact Hin.
  - intros Hin. exists 0. split; [exact Hin | reflexivity].
Qed.

Lemma method_reply_cases ms :
  (In 0 ms /\ method_reply ms = [5; 0]) \/ (~ In 0 ms /\ method_reply ms = [5; 255]).
Proof.
  unfold method_reply. destruct (offers_noauth ms) eqn:E.
  - left. split; [apply offers_noauth_iff; exact E | reflexivity].
  - right. split; [|reflexivity]. intros Hin. apply offers_noauth_iff in Hin. congruence.
Qed.

Lemma greeting_ok ms rest : run_bytes greeting_prog ([5; lenN ms] ++ ms ++ rest) = Accept ms rest.
Proof.
  unfold greeting_prog. rewrite run_exact_app by reflexivity.
  unfold byte_at. cbn [nth]. change (5 =? socks_ver) with true. cbv iota.
  rewrite run_exact_app by reflexivity. reflexivity.
Qed.

Lemma greeting_bad_version v n rest : v <> 5 -> run_bytes greeting_prog (v :: n :: rest) = Reject E_VER.
Proof.
  intros Hv. unfold greeting_prog. change (v :: n :: rest) with ([v; n] ++ rest).
  rewrite run_exact_app by reflexivity. unfold byte_at. cbn [nth]. change socks_ver with 5.
  destruct (N.eqb_spec v 5); [contradiction | reflexivity].
Qed.

(* SOCKS5 and the AnyTLS destination field use the same ATYP codes (1, 3, 4) and the same address bytes:
   socks_addr_k, atyp_of and addr_wire are convertible with addr_k, dest_atyp and dest_addr of Dest.v *)
Lemma socks_addr_k_eq {A} : @socks_addr_k A = @addr_k A.
Proof. reflexivity. Qed.

Lemma request_roundtrip rsv q rest :
  wf_dest (q_dest q) -> q_port q < 65536 ->
  run_bytes request_prog (request_wire rsv q ++ rest) = Accept q rest.
Proof.
  intros Hw Hp. unfold request_prog, request_wire.
  change ((socks_ver :: q_cmd q :: rsv :: atyp_of (q_dest q) :: addr_wire (q_dest q) ++ be16 (q_port q)) ++ rest)
    with ([socks_ver; q_cmd q; rsv; atyp_of (q_dest q)] ++ (addr_wire (q_dest q) ++ be16 (q_port q)) ++ rest).
  rewrite run_exact_app by reflexivity. unfold byte_at. cbn [nth]. rewrite N.eqb_refl.
  rewrite socks_addr_k_eq, <- app_assoc, (addr_k_ok _ (q_dest q)) by exact Hw.
  rewrite port_k_ok by exact Hp. destruct q. reflexivity.
Qed.

(* the events that only a CONNECT request produces: the open, the tunnel, a reply with REP = 0 *)
Definition loud (ev : sev) : bool :=
  match ev with
  | SOpen _ _ | STunnel _ => true
  | SWrite w => (lenN w =? 10) && (reply_rep w =? 0)
  | SEnd => false
  end.

Lemma quiet_in s ev : existsb loud s = false -> In ev s -> loud ev = false.
Proof.
  intros Hq Hin. destruct (loud ev) eqn:E; [|reflexivity].
  rewrite <- Hq. symmetry. apply existsb_exists. now exists ev.
Qed.

Section Session.
Variable open_ok : dest -> N -> bool.

Lemma after_greeting_cases r :
  match run_bytes request_prog r with
  | NeedMore => socks_after_greeting open_ok r = []
  | Reject _ => socks_after_greeting open_ok r = [SEnd]
  | Accept q r2 =>
      (q_cmd q = 1 /\ open_ok (q_dest q) (q_port q) = true /\
         socks_after_greeting open_ok r = [SOpen (q_dest q) (q_port q); SWrite (reply_bytes 0); STunnel r2]) \/
      (q_cmd q = 1 /\ open_ok (q_dest q) (q_port q) = false /\
         socks_after_greeting open_ok r = [SOpen (q_dest q) (q_port q); SWrite (reply_bytes 1); SEnd]) \/
      (q_cmd q <> 1 /\ socks_after_greeting open_ok r = [SWrite (reply_bytes 7); SEnd])
  end.
Proof.
  unfold socks_after_greeting. destruct (run_bytes request_prog r) as [|e|q r2]; try reflexivity.
  change socks_cmd_connect with 1. destruct (N.eqb_spec (q_cmd q) 1) as [Hc|Hc].
  - destruct (open_ok (q_dest q) (q_port q)); [left | right; left]; auto.
  - right; right. auto.
Qed.

Lemma session_cases b :
  match run_bytes greeting_prog b with
  | NeedMore => socks_session open_ok b = []
  | Reject _ => socks_session open_ok b = [SEnd]
  | Accept ms r =>
      (In 0 ms /\ socks_session open_ok b = SWrite [5; 0] :: socks_after_greeting open_ok r) \/
      (~ In 0 ms /\ socks_session open_ok b = [SWrite [5; 255]; SEnd])
  end.
Proof.
  unfold socks_session. destruct (run_bytes greeting_prog b) as [|e|ms r]; try reflexivity.
  destruct (method_reply_cases ms) as [[Hin Hr]|[Hn Hr]].
  - left. rewrite (proj2 (offers_noauth_iff ms) Hin), Hr. auto.
  - right. destruct (offers_noauth ms) eqn:Ho; [apply offers_noauth_iff in Ho; contradiction|]. rewrite Hr. auto.
Qed.

(* the selection message is [5;0] exactly when 'no authentication' was offered; otherwise [5;255] and
   the connection ends; before the greeting is complete nothing is written *)
Lemma session_method b ms r :
  run_bytes greeting_prog b = Accept ms r ->
  (In 0 ms -> exists tl, socks_session open_ok b = SWrite [5; 0] :: tl) /\
  (~ In 0 ms -> socks_session open_ok b = [SWrite [5; 255]; SEnd]).
Proof.
  intros Hg. pose proof (session_cases b) as Hs. rewrite Hg in Hs.
  destruct Hs as [[H0 Hs]|[Hn Hs]]; split; intros H; try contradiction; [eexists|]; exact Hs.
Qed.

Lemma session_no_greeting b :
  (run_bytes greeting_prog b = NeedMore -> socks_session open_ok b = []) /\
  (forall e, run_bytes greeting_prog b = Reject e -> socks_session open_ok b = [SEnd]).
Proof. unfold socks_session. split; [intros -> | intros e ->]; reflexivity. Qed.

Lemma session_selects_only_offered b tl :
  socks_session open_ok b = SWrite [5; 0] :: tl ->
  exists ms r, run_bytes greeting_prog b = Accept ms r /\ In 0 ms.
Proof.
  intros H. pose proof (session_cases b) as Hs.
  destruct (run_bytes greeting_prog b) as [|e|ms r]; try (rewrite Hs in H; discriminate).
  exists ms, r. split; [reflexivity|]. destruct Hs as [[H0 _]|[_ Hs]]; [exact H0|]. rewrite Hs in H. discriminate.
Qed.

(* a session is that of a CONNECT request after a greeting that offered 'no authentication', or has none of
   those events *)
Lemma session_outcomes b :
  (exists ms r q r2, run_bytes greeting_prog b = Accept ms r /\ In 0 ms /\
     run_bytes request_prog r = Accept q r2 /\ q_cmd q = 1 /\
     socks_session open_ok b =
       SWrite [5; 0] :: SOpen (q_dest q) (q_port q) ::
       (if open_ok (q_dest q) (q_port q) then [SWrite (reply_bytes 0); STunnel r2] else [SWrite (reply_bytes 1); SEnd])) \/
  existsb loud (socks_session open_ok b) = false.
Proof.
  pose proof (session_cases b) as Hs.
  destruct (run_bytes greeting_prog b) as [|e|ms r]; try (right; rewrite Hs; reflexivity).
  destruct Hs as [[H0 Hs]|[_ Hs]]; rewrite Hs; [|right; reflexivity].
  pose proof (after_greeting_cases r) as Ha.
  destruct (run_bytes request_prog r) as [|e|q r2] eqn:Er; try (right; rewrite Ha; reflexivity).
  destruct Ha as [(Hc & Ho & Ha)|[(Hc & Ho & Ha)|(_ & Ha)]]; rewrite Ha.
  - (* CONNECT, opened *) left. exists ms, r, q, r2. rewrite Ho. auto 10.
  - (* CONNECT, open refused *) left. exists ms, r, q, r2. rewrite Ho. auto 10.
  - (* another command: a refusal and the end *) right. reflexivity.
Qed.

Lemma session_connect_only b d p :
  In (SOpen d p) (socks_session open_ok b) ->
  exists ms r q r2, run_bytes greeting_prog b = Accept ms r /\ In 0 ms /\
    run_bytes request_prog r = Accept q r2 /\ q_cmd q = 1 /\ d = q_dest q /\ p = q_port q.
Proof.
  intros Hin. destruct (session_outcomes b) as [(ms & r & q & r2 & Hg & H0 & Hr & Hc & Hs)|Hq].
  - exists ms, r, q, r2. rewrite Hs in Hin. destruct Hin as [Hx|[Hx|Hin]]; [discriminate|inversion Hx; auto 10|].
    destruct (open_ok (q_dest q) (q_port q)); destruct Hin as [Hx|[Hx|[]]]; discriminate.
  - apply (quiet_in _ _ Hq) in Hin. discriminate.
Qed.

Lemma session_other_command b ms r q r2 :
  run_bytes greeting_prog b = Accept ms r -> In 0 ms ->
  run_bytes request_prog r = Accept q r2 -> q_cmd q <> 1 ->
  socks_session open_ok b = [SWrite [5; 0]; SWrite (reply_bytes 7); SEnd].
Proof.
  intros Hg H0 Hr Hc. pose proof (session_cases b) as Hs. rewrite Hg in Hs.
  destruct Hs as [[_ Hs]|[Hn _]]; [|contradiction]. rewrite Hs.
  pose proof (after_greeting_cases r) as Ha. rewrite Hr in Ha.
  destruct Ha as [(Hc' & _)|[(Hc' & _)|(_ & Ha)]]; try contradiction. rewrite Ha. reflexivity.
Qed.

Lemma session_reply b w :
  In (SWrite w) (socks_session open_ok b) -> lenN w = 10 ->
  (reply_rep w = 0 <->
   exists ms r q r2, run_bytes greeting_prog b = Accept ms r /\ run_bytes request_prog r = Accept q r2 /\
     q_cmd q = 1 /\ open_ok (q_dest q) (q_port q) = true /\
     socks_session open_ok b = [SWrite [5; 0]; SOpen (q_dest q) (q_port q); SWrite (reply_bytes 0); STunnel r2]).
Proof.
  intros Hin Hl. destruct (session_outcomes b) as [(ms & r & q & r2 & Hg & H0 & Hr & Hc & Hs)|Hq].
  - rewrite Hs in Hin |- *. destruct Hin as [Hx|[Hx|Hin]]; [inversion Hx; subst w; discriminate|discriminate|].
    destruct (open_ok (q_dest q) (q_port q)) eqn:Ho; destruct Hin as [Hx|[Hx|[]]]; try discriminate; inversion Hx; subst w.
    + split; [|reflexivity]. intros _. exists ms, r, q, r2. auto 10.
    + split; [discriminate|]. intros (ms' & r' & q' & r2' & _ & _ & _ & _ & Hs'). discriminate.
  - split.
    + intros Hrep. apply (quiet_in _ _ Hq) in Hin. cbn [loud] in Hin. rewrite Hl, Hrep in Hin. discriminate.
    + intros (ms & r & q & r2 & _ & _ & _ & _ & Hs). rewrite Hs in Hq. discriminate.
Qed.

Lemma session_tunnel_after_success b f :
  In (STunnel f) (socks_session open_ok b) ->
  exists d p, socks_session open_ok b = [SWrite [5; 0]; SOpen d p; SWrite (reply_bytes 0); STunnel f] /\
              open_ok d p = true.
Proof.
  intros Hin. destruct (session_outcomes b) as [(ms & r & q & r2 & _ & _ & _ & _ & Hs)|Hq].
  - rewrite Hs in Hin |- *. destruct Hin as [Hx|[Hx|Hin]]; try discriminate.
    destruct (open_ok (q_dest q) (q_port q)) eqn:Ho; destruct Hin as [Hx|[Hx|[]]]; try discriminate.
    inversion Hx; subst f. now exists (q_dest q), (q_port q).
  - apply (quiet_in _ _ Hq) in Hin. discriminate.
Qed.

Lemma after_greeting_ended_stable r m :
  In SEnd (socks_after_greeting open_ok r) ->
  socks_after_greeting open_ok (r ++ m) = socks_after_greeting open_ok r.
Proof.
  unfold socks_after_greeting. destruct (run_bytes request_prog r) as [|e|q r2] eqn:E.
  - intros [].
  - intros _. rewrite (run_bytes_app_reject _ _ m _ E). reflexivity.
  - rewrite (run_bytes_app_accept _ _ m _ _ E).
    destruct (q_cmd q =? socks_cmd_connect); [|reflexivity].
    destruct (open_ok (q_dest q) (q_port q)); [|reflexivity].
    intros Hin. destruct Hin as [Hx|[Hx|[Hx|[]]]]; discriminate.
Qed.

Lemma session_ended_stable b m :
  In SEnd (socks_session open_ok b) -> socks_session open_ok (b ++ m) = socks_session open_ok b.
Proof.
  unfold socks_session. destruct (run_bytes greeting_prog b) as [|e|ms r] eqn:E.
  - intros [].
  - intros _. rewrite (run_bytes_app_reject _ _ m _ E). reflexivity.
  - rewrite (run_bytes_app_accept _ _ m _ _ E). destruct (offers_noauth ms); [|reflexivity].
    intros [Hx|Hin]; [discriminate|]. rewrite (after_greeting_ended_stable r m Hin). reflexivity.
Qed.

Lemma session_tunnel_stable b m pre f :
  socks_session open_ok b = pre ++ [STunnel f] ->
  socks_session open_ok (b ++ m) = pre ++ [STunnel (f ++ m)].
Proof.
  intros Hs. destruct (session_outcomes b) as [(ms & r & q & r2 & Hg & H0 & Hr & Hc & Hb)|Hq].
  - rewrite Hb in Hs. destruct (open_ok (q_dest q) (q_port q)) eqn:Ho; apply (app_inj_tail [_; _; _] pre) in Hs.
    + destruct Hs as [<- [= <-]]. unfold socks_session, socks_after_greeting, method_reply.
      rewrite (run_bytes_app_accept _ _ m _ _ Hg), (proj2 (offers_noauth_iff ms) H0).
      rewrite (run_bytes_app_accept _ _ m _ _ Hr), Hc, Ho. reflexivity.
    + destruct Hs as [_ [=]].
  - assert (Hin : In (STunnel f) (socks_session open_ok b)) by (rewrite Hs; apply in_or_app; right; left; reflexivity).
    apply (quiet_in _ _ Hq) in Hin. discriminate.
Qed.

Lemma request_exact_only : exact_only E_EOF request_prog.
Proof.
  unfold request_prog. constructor. intros h. destruct (byte_at 0 h =? socks_ver); [|constructor].
  rewrite socks_addr_k_eq. apply addr_k_exact_only. intros d. apply port_k_exact_only.
Qed.

Lemma greeting_exact_only : exact_only E_EOF greeting_prog.
Proof.
  unfold greeting_prog. constructor. intros h. destruct (byte_at 0 h =? socks_ver); [|constructor].
  constructor. intros ms. constructor.
Qed.

Lemma after_greeting_rd_eq st :
  rd_wf st ->
  socks_after_greeting_rd open_ok st =
    if rclosed st then socks_after_greeting_eof open_ok (rd_pending_bytes st)
    else socks_after_greeting open_ok (rd_pending_bytes st).
Proof.
  intros Hwf. unfold socks_after_greeting_rd, socks_after_greeting_eof, socks_after_greeting.
  destruct (run_bytes request_prog (rd_pending_bytes st)) as [|e|q r2] eqn:E.
  - destruct (run_rd_needmore request_prog st E_EOF Hwf request_exact_only E) as (st' & ->).
    destruct (rclosed st); reflexivity.
  - destruct (run_rd_reject request_prog st e Hwf E) as (st' & ->). destruct (rclosed st); reflexivity.
  - destruct (run_rd_accept request_prog st q r2 Hwf E) as (st' & -> & Hp & _). rewrite Hp.
    destruct (rclosed st); reflexivity.
Qed.

Lemma session_rd_eq chunks closed :
  socks_session_rd open_ok chunks closed =
    if closed then socks_session_eof open_ok (concat chunks) else socks_session open_ok (concat chunks).
Proof.
  unfold socks_session_rd, socks_session_eof, socks_session.
  pose proof (rd_wf_of_chunks chunks closed) as Hwf.
  rewrite <- (rd_pending_of_chunks chunks closed).
  destruct (run_bytes greeting_prog (rd_pending_bytes (rd_of_chunks chunks closed))) as [|e|ms r] eqn:E.
  - destruct (run_rd_needmore greeting_prog _ E_EOF Hwf greeting_exact_only E) as (st' & ->).
    cbn [rclosed rd_of_chunks]. destruct closed; reflexivity.
  - destruct (run_rd_reject greeting_prog _ e Hwf E) as (st' & ->). destruct closed; reflexivity.
  - destruct (run_rd_accept greeting_prog _ ms r Hwf E) as (st' & -> & Hp & Hc & Hwf').
    rewrite (after_greeting_rd_eq st' Hwf'), Hp, Hc. cbn [rclosed rd_of_chunks].
    destruct closed; reflexivity.
Qed.

End Session.

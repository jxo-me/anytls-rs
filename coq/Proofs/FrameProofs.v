(* FrameProofs.v -- the frame codec (Model/Frame.v): single frames, the drain loop, chunking. *)
From Coq Require Import List NArith ZArith Lia Bool.
From AnyTLS Require Import Bytes Cmd Generated FactsCore Frame BytesFacts.
Import ListNotations.
Open Scope N_scope.


Lemma cmd_of_byte_unknown c : 10 < c -> cmd_of_byte c = Waste.
Proof.
  intros H. unfold cmd_of_byte, assoc_N. rewrite cmd_default_waste.
  assert (Hk : Forall (fun p : N * cmd => fst p <= 10) cmd_table)
    by (rewrite cmd_table_exact; repeat constructor; discriminate).
  induction Hk as [|p l Hp _ IH]; [reflexivity|]. cbn [find].
  destruct (N.eqb_spec (fst p) c); [lia | exact IH].
Qed.

Lemma byte_of_cmd_lt c : byte_of_cmd c < 256.
Proof. destruct c; vm_compute; reflexivity. Qed.

Lemma cmd_byte_roundtrip c : cmd_of_byte (byte_of_cmd c) = c.
Proof. destruct c; reflexivity. Qed.

Lemma byte_cmd_roundtrip b : b <= 10 -> byte_of_cmd (cmd_of_byte b) = b.
Proof.
  intros H.
  assert (b = 0 \/ b = 1 \/ b = 2 \/ b = 3 \/ b = 4 \/ b = 5 \/ b = 6 \/ b = 7 \/ b = 8 \/ b = 9 \/ b = 10) as Hc by lia.
  repeat destruct Hc as [-> | Hc]; try reflexivity. subst; reflexivity.
Qed.

Lemma max_payload_val : max_payload = 65535.
Proof. unfold max_payload. apply encode_max_payload_u16. Qed.

Lemma decode1_raw_encode_raw r rest :
  wf_rframe r -> decode1_raw (encode_raw r ++ rest) = Some (r, rest).
Proof.
  intros (Hc & Hs & Hd & Hl). rewrite max_payload_val in Hl.
  unfold encode_raw, be32, be16. cbn [app].
  unfold decode1_raw.
  rewrite de16_be16 by lia. rewrite de32_be32 by lia.
  rewrite lenN_app.
  destruct (N.leb_spec (lenN (rdata r)) (lenN (rdata r) + lenN rest)) as [_|]; [|lia].
  rewrite takeN_app_exact, dropN_app_exact. destruct r; reflexivity.
Qed.

Lemma decode1_raw_some b r rest :
  decode1_raw b = Some (r, rest) ->
  exists c s3 s2 s1 s0 l1 l0 body,
    b = c :: s3 :: s2 :: s1 :: s0 :: l1 :: l0 :: body /\ de16 l1 l0 <= lenN body /\
    r = {| rcmd := c; rsid := de32 s3 s2 s1 s0; rdata := takeN (de16 l1 l0) body |} /\
    rest = dropN (de16 l1 l0) body.
Proof.
  intros H. unfold decode1_raw in H.
  destruct b as [|c [|s3 [|s2 [|s1 [|s0 [|l1 [|l0 body]]]]]]]; try discriminate.
  destruct (N.leb_spec (de16 l1 l0) (lenN body)) as [Hle|]; [|discriminate].
  injection H as <- <-. do 8 eexists. eauto.
Qed.

Lemma decode1_raw_inv b r rest :
  wfb b -> decode1_raw b = Some (r, rest) ->
  b = encode_raw r ++ rest /\ wf_rframe r /\ wfb rest.
Proof.
  intros Hw H. destruct (decode1_raw_some _ _ _ H) as (c & s3 & s2 & s1 & s0 & l1 & l0 & body & -> & Hle & -> & ->).
  repeat (apply wfb_cons in Hw; destruct Hw as [? Hw]).
  destruct (wfb_take_drop (de16 l1 l0) body Hw) as [Ht Hd].
  split; [|split; [|exact Hd]].
  - unfold encode_raw. cbn [rcmd rsid rdata].
    rewrite lenN_takeN by exact Hle.
    rewrite be32_de32, be16_de16 by assumption. cbn [app].
    rewrite takeN_dropN. reflexivity.
  - unfold wf_rframe. cbn [rcmd rsid rdata]. rewrite max_payload_val.
    rewrite lenN_takeN by exact Hle.
    pose proof (de16_lt l1 l0). pose proof (de32_lt s3 s2 s1 s0).
    repeat split; try assumption; try lia; auto.
Qed.

Lemma decode1_raw_consumes b r rest :
  decode1_raw b = Some (r, rest) -> lenN b = 7 + lenN (rdata r) + lenN rest.
Proof.
  intros H. destruct (decode1_raw_some _ _ _ H) as (c & s3 & s2 & s1 & s0 & l1 & l0 & body & -> & Hle & -> & ->).
  cbn [rdata]. rewrite !lenN_cons, lenN_takeN, lenN_dropN by exact Hle. lia.
Qed.

Lemma decode1_raw_shorter b r rest : decode1_raw b = Some (r, rest) -> (7 + length rest <= length b)%nat.
Proof. intros E. pose proof (decode1_raw_consumes _ _ _ E) as H. unfold lenN in H. lia. Qed.

Lemma decode1_raw_app b c r rest :
  decode1_raw b = Some (r, rest) -> decode1_raw (b ++ c) = Some (r, rest ++ c).
Proof.
  intros H. destruct (decode1_raw_some _ _ _ H) as (c0 & s3 & s2 & s1 & s0 & l1 & l0 & body & -> & Hle & -> & ->).
  cbn [app decode1_raw].
  rewrite (proj2 (N.leb_le _ (lenN (body ++ c)))) by (rewrite lenN_app; lia).
  rewrite takeN_app_le, dropN_app_le by exact Hle. reflexivity.
Qed.

Lemma decode_all_raw_fuel_irrel f1 : forall f2 b,
  (length b <= f1)%nat -> (length b <= f2)%nat ->
  decode_all_raw_fuel f1 b = decode_all_raw_fuel f2 b.
Proof.
  induction f1 as [|k IH]; intros f2 b H1 H2.
  - destruct b; [|cbn in H1; lia]. destruct f2; reflexivity.
  - destruct f2 as [|k2].
    + destruct b; [|cbn in H2; lia]. reflexivity.
    + cbn [decode_all_raw_fuel].
      destruct (decode1_raw b) as [[f r]|] eqn:E; [|reflexivity].
      pose proof (decode1_raw_shorter _ _ _ E) as Hlen.
      rewrite (IH k2 r) by lia. reflexivity.
Qed.

Lemma decode_all_raw_unfold b :
  decode_all_raw b =
  match decode1_raw b with
  | None => ([], b)
  | Some (f, r) => let '(fs, r') := decode_all_raw r in (f :: fs, r')
  end.
Proof.
  unfold decode_all_raw. destruct (length b) as [|n] eqn:En.
  - destruct b; [reflexivity | discriminate].
  - cbn [decode_all_raw_fuel].
    destruct (decode1_raw b) as [[f r]|] eqn:E; [|reflexivity].
    pose proof (decode1_raw_shorter _ _ _ E) as Hlen.
    rewrite (decode_all_raw_fuel_irrel n (length r) r) by lia. reflexivity.
Qed.

Lemma bytes_len_ind (P : bytes -> Prop) :
  (forall b, (forall b', (length b' < length b)%nat -> P b') -> P b) -> forall b, P b.
Proof. exact (induction_ltof1 _ (@length N) P). Qed.

Lemma decode_all_raw_ind (P : bytes -> list rframe * bytes -> Prop) :
  (forall b, decode1_raw b = None -> P b ([], b)) ->
  (forall b f rest fs r, decode1_raw b = Some (f, rest) -> P rest (fs, r) -> P b (f :: fs, r)) ->
  forall b, P b (decode_all_raw b).
Proof.
  intros Hn Hs b. induction b as [b IH] using bytes_len_ind. rewrite decode_all_raw_unfold.
  destruct (decode1_raw b) as [[f rest]|] eqn:E; [|apply Hn, E].
  pose proof (decode1_raw_shorter _ _ _ E) as Hlen.
  specialize (IH rest ltac:(lia)). destruct (decode_all_raw rest) as [fs r]. apply (Hs b f rest fs r E IH).
Qed.

Lemma decode_all_raw_spec b :
  wfb b ->
  let '(fs, r) := decode_all_raw b in
  b = concat (map encode_raw fs) ++ r /\ decode1_raw r = None /\ Forall wf_rframe fs.
Proof.
  pattern b, (decode_all_raw b). apply decode_all_raw_ind; clear b.
  - auto.
  - intros b f rest fs r E IH Hw.
    destruct (decode1_raw_inv _ _ _ Hw E) as (Hb & Hf & Hrest). destruct (IH Hrest) as (Hr & Hn & Hall).
    cbn [map concat]. rewrite <- app_assoc, <- Hr. auto.
Qed.

Lemma decode_all_raw_concat fs : forall r,
  Forall wf_rframe fs -> decode1_raw r = None ->
  decode_all_raw (concat (map encode_raw fs) ++ r) = (fs, r).
Proof.
  induction fs as [|f fs IH]; intros r Hall Hn.
  - cbn [map concat app]. rewrite decode_all_raw_unfold, Hn. reflexivity.
  - inversion Hall; subst. cbn [map concat]. rewrite <- app_assoc.
    rewrite decode_all_raw_unfold, decode1_raw_encode_raw by assumption.
    rewrite IH by assumption. reflexivity.
Qed.

Lemma decode_all_raw_app (b : bytes) c :
  decode_all_raw (b ++ c) =
  let '(fs, r) := decode_all_raw b in
  let '(gs, r') := decode_all_raw (r ++ c) in (fs ++ gs, r').
Proof.
  pattern b, (decode_all_raw b). apply decode_all_raw_ind; clear b.
  - intros b Hn. destruct (decode_all_raw (b ++ c)). reflexivity.
  - intros b f rest fs r E IH. rewrite decode_all_raw_unfold, (decode1_raw_app _ c _ _ E), IH.
    destruct (decode_all_raw (r ++ c)). reflexivity.
Qed.

Lemma decode_all_app b c :
  decode_all (b ++ c) =
  let '(fs, r) := decode_all b in
  let '(gs, r') := decode_all (r ++ c) in (fs ++ gs, r').
Proof.
  unfold decode_all. rewrite decode_all_raw_app.
  destruct (decode_all_raw b) as [fs r]. destruct (decode_all_raw (r ++ c)) as [gs r'].
  rewrite map_app. reflexivity.
Qed.

Lemma decode_all_drained r : decode1_raw r = None -> decode_all r = ([], r).
Proof. intros H. unfold decode_all. rewrite decode_all_raw_unfold, H. reflexivity. Qed.

Lemma decode_all_rest_drained (b : bytes) : decode1_raw (snd (decode_all b)) = None.
Proof. unfold decode_all. pattern b, (decode_all_raw b). apply decode_all_raw_ind; auto. Qed.

Lemma feed_all_spec chunks : forall carry,
  decode1_raw carry = None ->
  feed_all carry chunks = decode_all (carry ++ concat chunks).
Proof.
  induction chunks as [|c cs IH]; intros carry Hd.
  - cbn [feed_all concat]. rewrite app_nil_r, decode_all_drained by exact Hd. reflexivity.
  - cbn [feed_all concat]. unfold feed. rewrite app_assoc, (decode_all_app (carry ++ c) (concat cs)).
    pose proof (decode_all_rest_drained (carry ++ c)) as Hr.
    destruct (decode_all (carry ++ c)) as [fs r]. cbn [snd] in Hr.
    rewrite (IH r Hr). reflexivity.
Qed.

Lemma chunking chunks : feed_all [] chunks = decode_all (concat chunks).
Proof. rewrite feed_all_spec by reflexivity. reflexivity. Qed.

Lemma decode_all_raw_progress (b : bytes) :
  (7 * length (fst (decode_all_raw b)) + length (snd (decode_all_raw b)) <= length b)%nat.
Proof.
  pattern b, (decode_all_raw b). apply decode_all_raw_ind; clear b.
  - intros b _. cbn. lia.
  - intros b f rest fs r E IH. pose proof (decode1_raw_shorter _ _ _ E) as Hc.
    cbn [fst snd length] in *. lia.
Qed.

Lemma decode_all_progress (b : bytes) :
  (7 * length (fst (decode_all b)) + length (snd (decode_all b)) <= length b)%nat.
Proof.
  pose proof (decode_all_raw_progress b) as H. unfold decode_all.
  destruct (decode_all_raw b) as [fs r]. cbn [fst snd] in *. rewrite map_length. exact H.
Qed.

Definition raw_of (f : frame) : rframe :=
  {| rcmd := byte_of_cmd (fcmd f); rsid := fsid f; rdata := fdata f |}.

Lemma cook_raw_of f : cook (raw_of f) = f.
Proof. destruct f. unfold cook, raw_of. cbn. rewrite cmd_byte_roundtrip. reflexivity. Qed.

Lemma raw_of_wf f : wf_frame f -> lenN (fdata f) <= 65535 -> wf_rframe (raw_of f).
Proof.
  intros [Hs Hd] Hl. unfold wf_rframe, raw_of. cbn [rcmd rsid rdata]. rewrite max_payload_val.
  split; [apply byte_of_cmd_lt | split; [exact Hs | split; [exact Hd | exact Hl]]].
Qed.

Lemma raw_of_wf_all fs :
  Forall wf_frame fs -> Forall (fun f => lenN (fdata f) <= 65535) fs -> Forall wf_rframe (map raw_of fs).
Proof. intros Hw Hl. apply Forall_map. rewrite Forall_forall in *. intros f Hf. apply raw_of_wf; auto. Qed.

Lemma encode_eq f :
  encode f = if lenN (fdata f) <=? 65535 then Some (encode_raw (raw_of f)) else None.
Proof. unfold encode. rewrite max_payload_val. reflexivity. Qed.

Lemma encode_some f : lenN (fdata f) <= 65535 -> encode f = Some (encode_raw (raw_of f)).
Proof. intros H. rewrite encode_eq, (proj2 (N.leb_le _ _) H). reflexivity. Qed.

Lemma oversize f : 65535 < lenN (fdata f) -> encode f = None.
Proof. intros H. rewrite encode_eq, (proj2 (N.leb_gt _ _) H). reflexivity. Qed.

Lemma decode1_none b : decode1 b = None <-> decode1_raw b = None.
Proof. unfold decode1. destruct (decode1_raw b) as [[r rest]|]; split; congruence. Qed.

Lemma decode_total b :
  wfb b ->
  exists rs r, decode_all_raw b = (rs, r) /\ decode_all b = (map cook rs, r) /\
    b = concat (map encode_raw rs) ++ r /\ decode1 r = None /\ Forall wf_rframe rs.
Proof.
  intros Hw. pose proof (decode_all_raw_spec b Hw) as H. unfold decode_all.
  destruct (decode_all_raw b) as [rs r]. destruct H as (Hb & Hn & Hall).
  exists rs, r. rewrite decode1_none. auto.
Qed.

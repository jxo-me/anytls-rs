(* SessPipe.v -- a stream is a lossless, ordered, exact byte pipe.
   Sender: write_data_frame splits without loss.  Receiver: for every interleaving of transport reads
   (any fragmentation) and application reads (any capacities), what has been delivered on a stream plus what
   is still queued for it is exactly the concatenation of the PSH payloads dispatched so far. *)
From Coq Require Import List NArith ZArith Lia Bool.
From AnyTLS Require Import Bytes Cmd Generated Frame Reader Session BytesFacts FrameProofs
  ReaderProofs SessTable SessHandle SessRecv.
Import ListNotations.
Import Sess.
Open Scope N_scope.

Lemma concat_split_fuel k : forall d, concat (split_fuel k d) = d.
Proof.
  induction k as [|k IH]; intros d; cbn [split_fuel].
  - cbn. apply app_nil_r.
  - destruct (max_payload <? lenN d); [|cbn; apply app_nil_r].
    cbn [concat]. rewrite IH. apply takeN_dropN.
Qed.

Lemma concat_split_chunk d : concat (split_chunk d) = d.
Proof. apply concat_split_fuel. Qed.

Lemma split_fuel_fits k : forall d, (length d <= k)%nat ->
  Forall (fun p => lenN p <= max_payload) (split_fuel k d).
Proof.
  pose proof max_payload_val as Hm.
  induction k as [|k IH]; intros d Hk; cbn [split_fuel].
  - constructor; [|constructor]. destruct d; [unfold lenN; cbn; lia | cbn in Hk; lia].
  - destruct (N.ltb_spec max_payload (lenN d)) as [Hlt|Hge].
    + constructor.
      * rewrite lenN_takeN by lia. lia.
      * apply IH. unfold dropN. rewrite skipn_length. unfold lenN in Hlt. lia.
    + constructor; [exact Hge | constructor].
Qed.

Lemma split_chunk_fits d : Forall (fun p => lenN p <= max_payload) (split_chunk d).
Proof. apply split_fuel_fits. lia. Qed.

Lemma split_chunk_nonempty d : split_chunk d <> [].
Proof.
  unfold split_chunk. destruct (length d); cbn [split_fuel]; [discriminate|].
  destruct (max_payload <? lenN d); discriminate.
Qed.

Lemma pushes_data_frames b sid d :
  pushes b (data_frames sid d) = if sid =? b then split_chunk d else [].
Proof.
  unfold pushes, data_frames. induction (split_chunk d) as [|p ps IH]; cbn [map filter].
  - destruct (sid =? b); reflexivity.
  - unfold is_push_for at 1. cbn [mk fcmd fsid cmd_eqb andb].
    destruct (sid =? b) eqn:E; cbn [map]; [rewrite IH; reflexivity | exact IH].
Qed.

Lemma sent_frames_app a b : sent_frames (a ++ b) = sent_frames a ++ sent_frames b.
Proof. unfold sent_frames. apply flat_map_app. Qed.

Lemma sent_frames_map_send fs : sent_frames (map Send fs) = fs.
Proof. induction fs as [|f fs IH]; [reflexivity|]. cbn. f_equal. exact IH. Qed.

Lemma run_wops_sent st ops :
  s_closed st = false -> sent_frames (run_wops st ops) = flat_map wop_frames ops.
Proof.
  intros Hc. induction ops as [|o ops IH]; [reflexivity|].
  cbn [run_wops flat_map]. fold (run_wops st ops). rewrite sent_frames_app, IH. f_equal.
  destruct o as [sid d|f]; cbn [wop_frames].
  - unfold write_data. rewrite Hc. cbn [fst]. apply sent_frames_map_send.
  - unfold write_ctrl. rewrite Hc. destruct (max_payload <? lenN (fdata f)); reflexivity.
Qed.

Lemma concat_pushes_wops b ops :
  concat (pushes b (flat_map wop_frames ops)) = written b ops.
Proof.
  induction ops as [|o ops IH]; [reflexivity|].
  cbn [flat_map written]. fold (written b ops). rewrite pushes_app, concat_app, IH. f_equal.
  destruct o as [sid d|f]; cbn [wop_frames].
  - rewrite pushes_data_frames. destruct (sid =? b); [apply concat_split_chunk | reflexivity].
  - destruct (max_payload <? lenN (fdata f)); cbn [negb]; [rewrite andb_false_r; reflexivity|].
    rewrite andb_true_r. unfold pushes. cbn [filter]. unfold is_push_for.
    destruct (cmd_eqb (fcmd f) Push && (fsid f =? b)); cbn; [apply app_nil_r | reflexivity].
Qed.

Lemma data_frames_ok sid d :
  Forall (fun f => fcmd f = Push /\ fsid f = sid /\ lenN (fdata f) <= max_payload) (data_frames sid d).
Proof.
  unfold data_frames. pose proof (split_chunk_fits d) as H.
  induction H as [|p ps Hp Hps IH]; cbn [map]; constructor; auto.
Qed.

Lemma pushes_filter_not_padding b gs : pushes b (filter not_padding gs) = pushes b gs.
Proof.
  unfold pushes. induction gs as [|g gs IH]; [reflexivity|]. cbn [filter].
  destruct (not_padding g) eqn:En.
  - cbn [filter]. destruct (is_push_for b g); cbn [map]; rewrite IH; reflexivity.
  - assert (Hp : is_push_for b g = false).
    { unfold not_padding in En. unfold is_push_for. destruct (fcmd g); cbn in *; try discriminate. reflexivity. }
    rewrite Hp. exact IH.
Qed.

Lemma waste_quiet c b f : not_padding f = false -> no_alert f /\ ends c b f = false.
Proof.
  unfold not_padding, no_alert, ends. destruct (fcmd f); cbn; try discriminate.
  intros _. split; [discriminate | apply andb_false_r].
Qed.

Definition caps_pos (ops : list rop) : Prop :=
  Forall (fun o => match o with ORead _ _ cap => 0 < cap | ORecv _ => True end) ops.

Definition quiet_for (c : cfg) (b : N) (fs : list frame) : Prop :=
  Forall (fun f => no_alert f /\ ends c b f = false) fs.

Lemma quiet_app c b fs gs : quiet_for c b (fs ++ gs) <-> quiet_for c b fs /\ quiet_for c b gs.
Proof. apply Forall_app. Qed.

Lemma delivered_cons_hit b k d lg : delivered b k ((b, k, RData d) :: lg) = d ++ delivered b k lg.
Proof. unfold delivered. cbn [flat_map]. rewrite N.eqb_refl, Nat.eqb_refl. reflexivity. Qed.

Lemma delivered_cons_pending b k sid k' lg : delivered b k ((sid, k', RPending) :: lg) = delivered b k lg.
Proof. reflexivity. Qed.

Lemma delivered_cons_other b k sid k' res lg :
  (sid <> b \/ k' <> k) -> delivered b k ((sid, k', res) :: lg) = delivered b k lg.
Proof.
  intros H. unfold delivered. cbn [flat_map]. destruct res; try reflexivity.
  destruct (N.eqb_spec sid b) as [->|]; cbn [andb]; [|reflexivity].
  destruct (Nat.eqb_spec k' k) as [->|]; [destruct H; congruence | reflexivity].
Qed.

Lemma saw_eof_cons_other b k sid k' res lg :
  (sid <> b \/ k' <> k) -> saw_eof b k ((sid, k', res) :: lg) = saw_eof b k lg.
Proof.
  intros H. unfold saw_eof. cbn [existsb]. destruct res; try reflexivity.
  destruct (N.eqb_spec sid b) as [->|]; cbn [andb orb]; [|reflexivity].
  destruct (Nat.eqb_spec k' k) as [->|]; [destruct H; congruence | reflexivity].
Qed.

(* the receiver while stream b is up: live session, b registered with an open queue, k0 earlier incarnations *)
Record rel (b : N) (k0 : nat) (st : sess) (s : stream) : Prop := {
  rel_wf : wf_sess st;
  rel_open : s_closed st = false;
  rel_alive : dead st = false;
  rel_live : lookup b (tbl st) = Some s;
  rel_rd : rd_open (rd s);
  rel_old : length (only b (gone st)) = k0
}.

Lemma rel_recv c b k0 st s fs :
  cfg_ok c -> rel b k0 st s -> quiet_for c b fs ->
  exists s', rel b k0 (fst (handle_all c st fs)) s' /\
    rd s' = rd_pushes (rd s) (pushes b fs) /\ sclosed s' = sclosed s.
Proof.
  intros Hok [Hwf Hcl Hd Hl Hop Hk] Hq.
  destruct (handle_all_content c st b s fs Hok Hd Hl Hq) as (s1 & Hl1 & Hg1 & Hrd1 & Hsc1 & Hd1 & Hc1).
  exists s1. split; [|auto]. split; try congruence.
  - apply handle_all_wf, Hwf.
  - rewrite Hrd1. apply rd_open_pushes, Hop.
Qed.

Lemma rel_read_other b k0 st s sid k cap :
  rel b k0 st s -> (sid <> b \/ k <> k0) -> rel b k0 (fst (read st sid k cap)) s.
Proof.
  intros [Hwf Hcl Hd Hl Hop Hk] Hne. unfold read. destruct (obj st sid k) as [so|]; [|split; assumption].
  destruct (rd_read (rd so) cap) as [r' res].
  destruct (set_obj_other st sid k (set_rd so r') b Hwf ltac:(rewrite Hk; exact Hne)) as (E1 & E2 & E3 & E4 & E5).
  cbn [fst]. split; (assumption || congruence).
Qed.

Lemma rel_read_live b k0 st s cap :
  rel b k0 st s -> 0 < cap ->
  exists st1 r' res, read st b k0 cap = (st1, Some res) /\ rel b k0 st1 (set_rd s r') /\
    match res with
    | RData d => rd_pending_bytes (rd s) = d ++ rd_pending_bytes r'
    | RPending => rd_pending_bytes (rd s) = [] /\ rd_pending_bytes r' = []
    | REof => False
    end.
Proof.
  intros [Hwf Hcl Hd Hl Hop Hk] Hcap. unfold read. rewrite <- Hk, (obj_live st b s Hl).
  destruct (rd_read_open (rd s) cap Hop Hcap) as (r' & res & Hr & Hop' & Hres).
  rewrite Hr, (set_obj_live st b s _ Hl). eexists _, r', res. split; [reflexivity|]. split.
  - split; auto. + apply nodup_insert, Hwf. + apply lookup_insert_eq.
  - destruct res; tauto.
Qed.

(* the frames are those of the streaming decoder fed chunk by chunk, so that a transport read is one unfolding of feed_all *)
Lemma run_rel c b k0 ops : forall st carry s,
  cfg_ok c -> rel b k0 st s ->
  quiet_for c b (fst (feed_all carry (recv_chunks ops))) ->
  caps_pos ops ->
  let '(st', carry', lg) := run_rops c st carry ops in
  exists s', rel b k0 st' s' /\
    delivered b k0 lg ++ rd_pending_bytes (rd s') =
      rd_pending_bytes (rd s) ++ concat (pushes b (fst (feed_all carry (recv_chunks ops)))) /\
    saw_eof b k0 lg = false /\ sclosed s' = sclosed s.
Proof.
  induction ops as [|o ops IH]; intros st carry s Hok Hrel Hq Hcaps.
  - exists s. cbn. rewrite app_nil_r. auto.
  - inversion Hcaps as [|? ? Hcap Hcaps']; subst.
    destruct o as [ch|sid k cap].
    + (* a transport read *)
      cbn [run_rops recv_chunks flat_map app feed_all] in *. fold (recv_chunks ops) in *.
      unfold recv. rewrite (rel_open _ _ _ _ Hrel), (rel_alive _ _ _ _ Hrel). cbn [orb].
      destruct (feed carry ch) as [fs1 carry1].
      destruct (feed_all carry1 (recv_chunks ops)) as [gs r'] eqn:Eg. cbn [fst] in Hq |- *.
      apply quiet_app in Hq. destruct Hq as [Hq1 Hq2].
      destruct (rel_recv c b k0 st s fs1 Hok Hrel Hq1) as (s1 & Hrel1 & Hrd1 & Hsc1).
      destruct (handle_all c st fs1) as [st1 o1]. cbn [fst] in *.
      specialize (IH st1 carry1 s1 Hok Hrel1 ltac:(rewrite Eg; exact Hq2) Hcaps').
      rewrite Eg in IH. cbn [fst] in IH.
      destruct (run_rops c st1 carry1 ops) as [[st2 carry2] lg].
      destruct IH as (s' & H1 & H2 & H3 & H4).
      exists s'. rewrite H2, Hrd1, rd_pending_pushes, pushes_app, concat_app, app_assoc.
      refine (conj H1 (conj eq_refl (conj H3 _))). congruence.
    + (* an application read on object (sid,k) *)
      cbn [run_rops recv_chunks flat_map app] in *. fold (recv_chunks ops) in *.
      assert (Hdec : {sid = b /\ k = k0} + {sid <> b \/ k <> k0})
        by (destruct (N.eq_dec sid b); [destruct (Nat.eq_dec k k0)|]; auto).
      destruct Hdec as [[-> ->]|Hne].
      * (* the live object of b *)
        destruct (rel_read_live b k0 st s cap Hrel Hcap) as (st1 & r' & res & -> & Hrel1 & Hres).
        specialize (IH st1 carry (set_rd s r') Hok Hrel1 Hq Hcaps').
        destruct (run_rops c st1 carry ops) as [[st2 carry2] lg].
        destruct IH as (s' & H1 & H2 & H3 & H4). exists s'. cbn [set_rd rd sclosed] in *.
        destruct res as [d| |]; [| contradiction |].
        -- rewrite delivered_cons_hit, <- app_assoc, H2, Hres, <- app_assoc. auto.
        -- destruct Hres as [He1 He2]. rewrite delivered_cons_pending, H2, He1, He2. auto.
      * (* an older object of b, or another stream *)
        pose proof (rel_read_other b k0 st s sid k cap Hrel Hne) as Hrel1.
        destruct (read st sid k cap) as [st1 ores]. cbn [fst] in *.
        specialize (IH st1 carry s Hok Hrel1 Hq Hcaps').
        destruct ores as [res|]; [|exact IH].
        destruct (run_rops c st1 carry ops) as [[st2 carry2] lg].
        rewrite delivered_cons_other, saw_eof_cons_other by exact Hne. exact IH.
Qed.

Lemma quiet_unpad c b gs : quiet_for c b (filter not_padding gs) -> quiet_for c b gs.
Proof.
  unfold quiet_for. rewrite !Forall_forall. intros H f Hf.
  destruct (not_padding f) eqn:E; [apply H, filter_In; auto | apply (waste_quiet c b f E)].
Qed.

(* the setting of the pipe statements: a sender that is not closed, a wire whose decoded frames, padding deleted,
   are the submitted frames, and a live receiver in which stream b is registered with a fresh queue *)
Record pipe_setup (cR : cfg) (stR : sess) (b : N) (s : stream) (w : bytes) (gs : list frame)
                  (stS : sess) (wops : list wop) : Prop := {
  ps_sender : s_closed stS = false;
  ps_wire : decode_all w = (gs, []);
  ps_padding : filter not_padding gs = sent_frames (run_wops stS wops);
  ps_quiet : quiet_for cR b (sent_frames (run_wops stS wops));
  ps_cfg : cfg_ok cR;
  ps_wf : wf_sess stR;
  ps_open : s_closed stR = false;
  ps_alive : dead stR = false;
  ps_stream : lookup b (tbl stR) = Some s;
  ps_fresh : rd s = rd_init
}.

Lemma pipe_setup_rel cR stR b s w gs stS wops :
  pipe_setup cR stR b s w gs stS wops -> rel b (length (only b (gone stR))) stR s.
Proof.
  intros [_ _ _ _ _ Hwf Hcl Hd Hl Hrd]. constructor; try assumption; [|reflexivity].
  rewrite Hrd. apply rd_open_init.
Qed.

Theorem pipe_main cR stR b s w gs stS wops :
  pipe_setup cR stR b s w gs stS wops ->
  forall ops rest, concat (recv_chunks ops) ++ rest = w -> caps_pos ops ->
  let '(stR', _, lg) := run_rops cR stR [] ops in
  exists s' later, lookup b (tbl stR') = Some s' /\ rd_open (rd s') /\
    delivered b (length (only b (gone stR))) lg ++ rd_pending_bytes (rd s') ++ later = written b wops /\
    saw_eof b (length (only b (gone stR))) lg = false /\
    (rest = [] -> later = []) /\
    s_closed stR' = false /\ dead stR' = false /\ sclosed s' = sclosed s /\ wf_sess stR'.
Proof.
  intros Hset ops rest Hw Hcaps. pose proof (pipe_setup_rel cR stR b s w gs stS wops Hset) as Hrel.
  destruct Hset as [HcS Hdec Hpad Hquiet Hok _ _ _ _ Hrd].
  rewrite <- Hpad in Hquiet. apply quiet_unpad in Hquiet.
  assert (Hwr : written b wops = concat (pushes b gs)).
  { rewrite <- concat_pushes_wops, <- (run_wops_sent stS wops HcS), <- Hpad.
    rewrite pushes_filter_not_padding. reflexivity. }
  rewrite <- Hw in Hdec. rewrite decode_all_app in Hdec.
  pose proof (decode_all_rest_drained (concat (recv_chunks ops))) as Hdr.
  destruct (decode_all (concat (recv_chunks ops))) as [fs1 r1] eqn:E1. cbn [snd] in Hdr.
  destruct (decode_all (r1 ++ rest)) as [gs' r'] eqn:E2.
  injection Hdec as Hgs Hr'. subst gs r'.
  apply quiet_app in Hquiet. destruct Hquiet as [Hq1 _].
  pose proof (run_rel cR b (length (only b (gone stR))) ops stR [] s Hok Hrel) as H.
  rewrite chunking, E1 in H. cbn [fst] in H. specialize (H Hq1 Hcaps).
  destruct (run_rops cR stR [] ops) as [[stR' carry'] lg].
  destruct H as (s' & [H7 H5 H6 H1 H2 _] & H3 & H4 & H9).
  exists s', (concat (pushes b gs')).
  rewrite Hrd in H3. cbn [rd_pending_bytes rd_init rbuf rq concat app] in H3.
  rewrite Hwr, pushes_app, concat_app, app_assoc, H3.
  refine (conj H1 (conj H2 (conj eq_refl (conj H4 (conj _ (conj H5 (conj H6 (conj H9 H7)))))))).
  intros ->. rewrite app_nil_r, decode_all_drained in E2 by exact Hdr. injection E2 as <- _. reflexivity.
Qed.

Corollary pipe_prefix cR stR b s w gs stS wops :
  pipe_setup cR stR b s w gs stS wops ->
  forall ops rest, concat (recv_chunks ops) ++ rest = w -> caps_pos ops ->
  let '(_, _, lg) := run_rops cR stR [] ops in
  (exists more, delivered b (length (only b (gone stR))) lg ++ more = written b wops) /\
  saw_eof b (length (only b (gone stR))) lg = false.
Proof.
  intros Hset ops rest Hw Hcaps. pose proof (pipe_main cR stR b s w gs stS wops Hset ops rest Hw Hcaps) as H.
  destruct (run_rops cR stR [] ops) as [[st' c'] lg].
  destruct H as (s' & later & _ & _ & E & Heof & _). split; [eexists; exact E | exact Heof].
Qed.

Lemma rd_read_script_open caps : forall r,
  rd_open r -> Forall (fun cap => 0 < cap) caps ->
  let '(r', got, e) := rd_read_script r caps in
  e = false /\ rd_open r' /\ got ++ rd_pending_bytes r' = rd_pending_bytes r.
Proof.
  induction caps as [|cap caps IH]; intros r Hop Hall.
  - cbn. auto.
  - inversion Hall as [|? ? Hcap Hall']; subst. cbn [rd_read_script].
    destruct (rd_read_open r cap Hop Hcap) as (r1 & res & Hr & Hop1 & Hres). rewrite Hr.
    destruct res as [d| |]; [|contradiction|].
    + specialize (IH r1 Hop1 Hall'). destruct (rd_read_script r1 caps) as [[r2 got] e].
      destruct IH as (He & Hop2 & Hcat). destruct Hres as [_ Hd].
      rewrite Hd, <- Hcat, app_assoc. auto.
    + destruct Hres as [H1 H2]. rewrite H1, H2. auto.
Qed.

Theorem pipe_end cR stR b s w gs stS wops :
  pipe_setup cR stR b s w gs stS wops ->
  forall ops, concat (recv_chunks ops) = w -> caps_pos ops ->
  let '(stR', _, lg) := run_rops cR stR [] ops in
  let stE := fst (recv_eof stR') in
  tbl stE = [] /\
  exists sf, only b (gone stE) = only b (gone stR') ++ [sf] /\
    forall caps, Forall (fun cap => 0 < cap) caps ->
      let '(_, got, e) := rd_read_script (rd sf) caps in
      (exists rest, delivered b (length (only b (gone stR))) lg ++ got ++ rest = written b wops) /\
      (e = true -> delivered b (length (only b (gone stR))) lg ++ got = written b wops).
Proof.
  intros Hset ops Hw Hcaps.
  pose proof (pipe_main cR stR b s w gs stS wops Hset ops [] ltac:(rewrite app_nil_r; exact Hw) Hcaps) as H.
  destruct (run_rops cR stR [] ops) as [[stR' carry'] lg].
  destruct H as (s' & later & Hl & Hop & Hcat & _ & Hlater & Hc & Hd & _ & Hwf).
  rewrite (Hlater eq_refl), app_nil_r in Hcat.
  cbv zeta. unfold recv_eof, close. rewrite Hc, Hd. cbn [orb fst with_dead tbl gone].
  split; [reflexivity|]. exists (kill s').
  rewrite only_app, (only_map b kill), (only_lookup_nodup b (tbl stR') s' Hwf Hl).
  split; [reflexivity|]. intros caps Hcs.
  pose proof (closed_drains (rd (kill s')) (rd_wf_close _ (rd_open_wf _ Hop)) eq_refl caps Hcs) as Hdr.
  destruct (rd_read_script (rd (kill s')) caps) as [[r' got] e]. rewrite <- Hcat.
  destruct Hdr as [[rest Er] Ee]. split.
  - exists rest. change (rd_pending_bytes (rd (kill s'))) with (rd_pending_bytes (rd s')) in Er. rewrite Er. reflexivity.
  - intros Ht. rewrite (Ee Ht). reflexivity.
Qed.

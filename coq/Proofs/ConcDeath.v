(* ConcDeath.v -- C09 core on Model/Conc.v: no task can be blocked forever by the session's own locks,
   a closed session ends up shut down with its tables drained, every waiter released, and every later
   write or open fails. All statements hold for every program list and every schedule. *)
From Coq Require Import List NArith Bool.
From AnyTLS Require Import Bytes Cmd Generated Frame Conc ConcInv ConcLin.
Import ListNotations.

(* what a step of t does to another task w: beside what a step clear of the lock does (ConcInv.moved), the holder's
   release hands the lock to a queued writer, or lets a queued close() through *)
Inductive other_effect (s : state) (t : tid) (s' : state) (w : tid) : Prop :=
| OE_same : pcof s' w = pcof s w -> other_effect s t s' w
| OE_handoff k f : pcof s w = PW2wait k f -> pcof s' w = PW3 k f -> holds_pc (pcof s t) = true -> other_effect s t s' w
| OE_closer a k : pcof s w = PC2wait a k -> pcof s' w = PIdle -> shutd s' = true -> holds_pc (pcof s t) = true ->
    other_effect s t s' w
| OE_kick : w = rtid -> pcof s w = PIdle -> feeds s t -> kick_target (pcof s' w) -> other_effect s t s' w
| OE_wake : pcof s w = PPwait -> pump_owner s = Some w -> wakes s t -> pump_target (pcof s' w) -> other_effect s t s' w.

Lemma oe_release s t s1 s' w :
  rel_effect s s1 w -> holds_pc (pcof s t) = true -> pcof s' w = pcof s1 w -> shutd s' = shutd s1 -> other_effect s t s' w.
Proof.
  intros [A|[(k & f & A & B)|(a & k & A & B & C)]] Hh E' Sh.
  - apply OE_same. rewrite E'. exact A.
  - apply (OE_handoff s t s' w k f A); [rewrite E'; exact B | exact Hh].
  - apply (OE_closer s t s' w a k A); [rewrite E'; exact B | rewrite Sh; exact C | exact Hh].
Qed.

Theorem step_others s t s' : Inv s -> step s t = Some s' -> forall w, w <> t -> other_effect s t s' w.
Proof.
  intros HI H w Hw.
  destruct (step_shape_of s t s' H) as [Sh|k f P W ->|q Q W ->|k f P ->|k held P _ _ ->|k held P _ _ ->].
  - destruct (ol_others _ _ _ (off_shape_lock s t s' Sh) w Hw) as [E|[(A & B & F & K)|(A & (O & W) & K)]].
    + exact (OE_same s t s' w E).
    + exact (OE_kick s t s' w A B F K).
    + exact (OE_wake s t s' w A O W K).
  - apply OE_same. exact (pcu_other (pcu_set_pc (set_lock s _ _) t _) w Hw).
  - apply OE_same. exact (pcu_other (pcu_set_pc (set_lock s _ _) t _) w Hw).
  - apply OE_same. exact (pcu_other (pcu_set_pc (set_queue s _ _) t _) w Hw).
  - destruct (release_write s t (pkt s + 1)%N (wire s) HI) as [_ O]; [rewrite P; reflexivity|].
    apply (oe_release s t _ _ w (O w Hw)); [rewrite P; reflexivity | exact (pcu_other (pcu_set_pc (release _) t _) w Hw) | reflexivity].
  - destruct (release_write s t (pkt s + 1)%N (wire s ++ [((pkt s + 1)%N, held)]) HI) as [_ O]; [rewrite P; reflexivity|].
    apply (oe_release s t _ _ w (O w Hw)); [rewrite P; reflexivity | exact (pcu_other (pcu_finish_w (release _) t k ResOk) w Hw)|].
    destruct k; reflexivity.
Qed.

Definition finished (s : state) (t : tid) : Prop := pcof s t = PIdle /\ t_prog (tasks s t) = [].
(* waiting for the peer (data / verdict) -- not for anything the session itself holds *)
Definition awaits_peer (s : state) (t : tid) : Prop :=
  pcof s t = PIdle /\ exists rest,
    (t_prog (tasks s t) = CAwait :: rest /\ t_sid (tasks s t) <> None /\ t_verdict (tasks s t) = None)
    \/ (t_prog (tasks s t) = CRead :: rest /\ t_sid (tasks s t) <> None /\ t_rq (tasks s t) = O /\ t_rclosed (tasks s t) = false).

(* blocked inside `writer.write_all(..)` on a transport whose peer has stopped reading (known finding F4): the
   only way a task of the model is ever blocked while it holds the writer mutex *)
Definition in_transport (s : state) (t : tid) : Prop :=
  stalled s = true /\ shut s = false /\ exists k held, pcof s t = PW4 k held.

(* the pump parked in recv() of the outbound data channel: it waits for the local application's next chunk (or for
   the close notification), not for anything the session holds *)
Definition awaits_app (s : state) (t : tid) : Prop := pcof s t = PPwait.

Lemma step_none s t :
  step s t = None ->
  finished s t \/ awaits_peer s t \/ awaits_app s t \/ waits_pc (pcof s t) = true \/ in_transport s t.
Proof.
  unfold step, finished, awaits_peer, awaits_app, in_transport, pcof. intros H.
  destruct (t_pc (tasks s t)) eqn:Epc; try (right; right; right; left; reflexivity).
  - destruct (t_prog (tasks s t)) as [|c rest] eqn:Eprog; [left; split; reflexivity|].
    right; left. split; [reflexivity|]. exists rest.
    unfold start_call in H. cbn [t_sid t_verdict t_rq t_rclosed t_sclosed with_prog] in H.
    destruct c; try discriminate.
    + destruct (t_sid (tasks s t)); discriminate.
    + destruct (closed s); discriminate.
    + left. destruct (t_sid (tasks s t)); [destruct (t_verdict (tasks s t))|]; try discriminate.
      repeat split; discriminate.
    + destruct (t_sid (tasks s t)); [destruct (t_verdict (tasks s t))|]; discriminate.
    + right. destruct (t_sid (tasks s t)); [destruct (t_rq (tasks s t)); [destruct (t_rclosed (tasks s t))|]|]; try discriminate.
      repeat split; discriminate.
    + destruct (Nat.eqb t rtid); discriminate.
    + destruct (t_sid (tasks s t)); [destruct (t_sclosed (tasks s t) || pump_done s)|]; discriminate.
    + destruct (pump_owner s) as [p|]; [|discriminate].
      destruct (negb (Nat.eqb p t)); [|destruct (pump_done s); [|destruct (dq s) as [|[u f] q]; [|destruct (closed s)]]]; discriminate.
  - destruct (closed s); [|destruct (buffering s)]; discriminate.
  - discriminate.
  - destruct (wr s); discriminate.
  - discriminate.
  - right; right; right; right.
    destruct (stalled s); [destruct (shut s)|]; cbn [andb negb] in H.
    + destruct (failing s || true); discriminate.
    + repeat split. eauto.
    + destruct (failing s || shut s); discriminate.
  - discriminate.
  - discriminate.
  - destruct (wr s); discriminate.
  - discriminate.
  - discriminate.
  - discriminate.
  - right; right; left. reflexivity.
Qed.

Lemma holder_enabled s h : Inv s -> wr s = Some h -> step s h <> None \/ in_transport s h.
Proof.
  intros HI E. apply (inv_holder s HI) in E. destruct (step s h) eqn:H; [left; discriminate | right].
  destruct (step_none s h H) as [[P _]|[[P _]|[P|[P|P]]]]; try exact P; try (rewrite P in E; discriminate).
  destruct (pcof s h); discriminate.
Qed.

Theorem no_deadlock s t :
  Inv s ->
  finished s t \/ (awaits_peer s t \/ awaits_app s t) \/ step s t <> None \/
  (waits_pc (pcof s t) = true /\ exists h, wr s = Some h /\ (step s h <> None \/ in_transport s h)) \/
  in_transport s t.
Proof.
  intros HI. destruct (step s t) eqn:H; [right; right; left; discriminate|].
  destruct (step_none s t H) as [F|[A|[A|[Wt|T]]]]; auto.
  right; right; right; left. split; [exact Wt|].
  destruct (wr s) as [h|] eqn:Ewr.
  - exists h. split; [reflexivity | apply holder_enabled; assumption].
  - apply (inv_wait s HI) in Wt. rewrite (inv_free s HI Ewr) in Wt. destruct Wt.
Qed.

Lemma drain_keeps tb ts u :
  (t_rclosed (ts u) = true -> t_rclosed (drain tb ts u) = true) /\
  (forall r, t_verdict (ts u) = Some r -> t_verdict (drain tb ts u) = Some r).
Proof.
  apply (sr_drain (R := fun x y => (t_rclosed x = true -> t_rclosed y = true) /\
                                   (forall r, t_verdict x = Some r -> t_verdict y = Some r))).
  constructor; cbn; auto.
  - intros x y z (A & B) (A' & B'). split; auto.
  - intros x v Hv. split; auto. intros r E. rewrite Hv by congruence. exact E.
Qed.

Theorem drain_releases tb : forall ts sid o,
  In (sid, o) tb ->
  t_rclosed (drain tb ts o) = true /\ t_verdict (drain tb ts o) <> None.
Proof.
  induction tb as [|[sid' o'] tb IH]; intros ts sid o Hin; [destruct Hin|].
  cbn [drain]. destruct Hin as [E|Hin]; [|eapply IH; exact Hin].
  inversion E; subst.
  match goal with |- context [drain tb ?ts1 o] => destruct (drain_keeps tb ts1 o) as (A & B) end.
  rewrite upd_same in A, B. split; [apply A; reflexivity|].
  destruct (t_verdict (ts o)) as [r|]; [rewrite (B r) | rewrite (B ResClosed)]; (reflexivity || discriminate).
Qed.

Lemma table_push s t f : table (push_item s t f) = table s.
Proof. apply (fr_table (framed_push s t f)). Qed.
Lemma table_wake s : table (wake_pump_closed s) = table s.
Proof. apply (fr_table (framed_wake s)). Qed.

(* an owner may stand in the table more than once (a task that opened two streams): its first entry settles the
   verdict and the rest of the pass keeps it *)
Theorem drain_resolves tb : forall ts sid o,
  In (sid, o) tb -> t_verdict (ts o) = None -> t_verdict (drain tb ts o) = Some ResClosed.
Proof.
  induction tb as [|[sid' o'] tb IH]; intros ts sid o Hin Hv; [destruct Hin|].
  cbn [drain]. destruct (Nat.eq_dec o' o) as [->|Hne].
  - apply (proj2 (drain_keeps _ _ _)). rewrite upd_same. cbn. rewrite Hv. reflexivity.
  - destruct Hin as [E|Hin]; [inversion E; congruence|].
    apply (IH _ sid); [exact Hin|]. rewrite upd_other by (intros E; apply Hne; symmetry; exact E). exact Hv.
Qed.

Theorem close_drain_step s t a k s' :
  pcof s t = PC1 a k -> step s t = Some s' ->
  table s' = [] /\
  forall sid o, In (sid, o) (table s) ->
    t_rclosed (tasks s' o) = true /\ t_verdict (tasks s' o) <> None.
Proof.
  intros Epc H. unfold step in H. unfold pcof in Epc. rewrite Epc in H. cbv zeta in H. inversion H; subst.
  split; [reflexivity|]. intros sid o Hin. rewrite <- (table_wake s) in Hin.
  pose proof (drain_releases _ (tasks (wake_pump_closed s)) sid o Hin) as D. cbn.
  (* the closer's own stream too: moving its pc leaves the queue and the verdict as the drain set them *)
  destruct (Nat.eq_dec o t) as [->|Hne]; [rewrite upd_same | rewrite upd_other by exact Hne]; exact D.
Qed.

Theorem write_on_closed_fails s t k f :
  closed s = true -> pcof s t = PW0 k f ->
  exists s', step s t = Some s' /\ wire s' = wire s /\ pending s' = pending s /\
             exists pre, t_res (tasks s' t) = pre ++ [ResClosed].
Proof.
  intros C Epc. unfold step. unfold pcof in Epc. rewrite Epc, C.
  eexists. split; [reflexivity|]. destruct k; cbn; rewrite upd_same; cbn; repeat split; eexists; reflexivity.
Qed.

Theorem open_on_closed_fails s t rest :
  closed s = true -> pcof s t = PIdle -> t_prog (tasks s t) = COpen :: rest ->
  exists s', step s t = Some s' /\ table s' = table s /\ exists pre, t_res (tasks s' t) = pre ++ [ResClosed].
Proof.
  intros C Epc Ep. unfold step. unfold pcof in Epc. rewrite Epc, Ep. unfold start_call. rewrite C.
  eexists. split; [reflexivity|]. cbn. rewrite !upd_same. cbn. split; [reflexivity | eexists; reflexivity].
Qed.

Theorem write_on_shut_fails s t k held :
  shut s = true -> pcof s t = PW4 k held ->
  exists s', step s t = Some s' /\ wire s' = wire s /\ pcof s' t = PE0 AfterIoErr k.
Proof.
  intros C Epc. unfold step. unfold pcof in Epc. rewrite Epc, C, orb_true_r. cbn [negb]. rewrite andb_false_r.
  eexists. split; [reflexivity|]. split; [apply (fr_wire (framed_write_fail s t _ _ (wire s))) | apply pcof_set_pc].
Qed.

Definition in_close (p : pc) : bool :=
  match p with PC1 _ _ | PC2 _ _ | PC2wait _ _ => true | _ => false end.
Definition is_pc1 (p : pc) : bool := match p with PC1 _ _ => true | _ => false end.

Lemma step_self_in_close s t s' :
  step s t = Some s' -> in_close (pcof s t) = true -> in_close (pcof s' t) = true \/ shutd s' = true.
Proof.
  intros H I. unfold step in H. unfold pcof in I.
  destruct (t_pc (tasks s t)) eqn:Epc; try discriminate.
  - inversion H; subst. left. rewrite pcof_set_pc. reflexivity.
  - destruct (wr s); inversion H; subst; [left; rewrite pcof_set_pc; reflexivity | right].
    apply (shutd_framed (shutdown_tr s)); [apply framed_finish_close | apply shutd_shutdown_tr].
Qed.

Lemma closing_step s t s' :
  step s t = Some s' -> closed s = false -> closed s' = true -> exists x, is_pc1 (pcof s' x) = true.
Proof.
  intros H C C'. destruct (proj1 (step_flags s t s' H)) as [E|(_ & _ & [(a & k & P)|[_ P]])]; [congruence | |]; eexists; rewrite P; reflexivity.
Qed.

Definition shut_ok (s : state) : Prop :=
  closed s = true -> shutd s = true \/ exists x, in_close (pcof s x) = true.

Theorem step_shut_ok s t s' : Inv s -> shut_ok s -> step s t = Some s' -> shut_ok s'.
Proof.
  intros HI S H C'. destruct (closed s) eqn:C.
  - destruct (S C) as [Sh|[x Hx]]; [left; eapply step_shutd; eauto|].
    destruct (Nat.eq_dec x t) as [->|Hne].
    + destruct (step_self_in_close s t s' H Hx) as [A|A]; [right; exists t; exact A | left; exact A].
    + destruct (step_others s t s' HI H x Hne) as [E|k f A _ _|a k _ _ Sh _|_ A _ _|A _ _ _];
        try (rewrite A in Hx; discriminate); [right; exists x; rewrite E; exact Hx | left; exact Sh].
  - right. destruct (closing_step s t s' H C C') as [x P]. exists x. destruct (pcof s' x); try discriminate P; reflexivity.
Qed.

Lemma shut_ok_init progs buf pend : shut_ok (init progs buf pend).
Proof. intros C. discriminate. Qed.

Lemma lookup_none_not_in tb o : lookup_owner tb o = None -> forall sid, ~ In (sid, o) tb.
Proof.
  induction tb as [|[sid' o'] tb IH]; intros E sid Hin; [destruct Hin|].
  cbn in E. destruct (Nat.eqb o' o) eqn:Eo; [discriminate|]. destruct Hin as [X|X].
  - inversion X; subst. rewrite Nat.eqb_refl in Eo. discriminate.
  - apply (IH E sid X).
Qed.

(* a received FIN removes the owner's entries from both maps and closes its inbound queue *)
Lemma feed_tables s ev :
  (table (feed_ev s ev) = table s /\ rtable (feed_ev s ev) = rtable s) \/
  exists o, table (feed_ev s ev) = remove_owner (table s) o /\
            ((rtable (feed_ev s ev) = remove_owner (rtable s) o /\ t_rclosed (tasks (feed_ev s ev) o) = true) \/
             (rtable (feed_ev s ev) = rtable s /\ lookup_owner (rtable s) o = None)).
Proof.
  unfold feed_ev. destruct (negb (ralive s)); [left; split; reflexivity|]. destruct ev.
  - left. destruct (lookup_owner (table s) owner); [destruct (t_verdict (tasks s owner))|]; split; reflexivity.
  - left. destruct (lookup_owner (rtable s) owner); split; reflexivity.
  - right. exists owner. destruct (lookup_owner (rtable s) owner); (split; [reflexivity|]).
    + left. split; [reflexivity | cbn; rewrite upd_same; reflexivity].
    + right. split; reflexivity.
  - left. destruct (pc_is_idle (t_pc (tasks s rtid))); [|split; reflexivity].
    split; [apply (fr_table (framed_enter_close (mark_state s) rtid _ _)) | apply (fr_rtable (framed_enter_close (mark_state s) rtid _ _))].
  - left. destruct (pc_is_idle (t_pc (tasks s rtid))); [|split; reflexivity].
    split; [apply (fr_table (framed_enter_close s rtid _ _)) | apply (fr_rtable (framed_enter_close s rtid _ _))].
  - left. destruct (pc_is_idle (t_pc (tasks s rtid))); split; reflexivity.
Qed.
Lemma table_feed s ev :
  table (feed_ev s ev) = table s \/ exists o, table (feed_ev s ev) = remove_owner (table s) o.
Proof. destruct (feed_tables s ev) as [[T _]|(o & T & _)]; [left | right; exists o]; exact T. Qed.
Lemma rtable_feed s ev :
  rtable (feed_ev s ev) = rtable s \/ exists o, rtable (feed_ev s ev) = remove_owner (rtable s) o.
Proof. destruct (feed_tables s ev) as [[_ R]|(o & _ & [[R _]|[R _]])]; [left | right; exists o | left]; exact R. Qed.

(* `streams` gets an entry only by the second insert of open_stream (PO0b), `stream_receive_tx` only by the first
   (PO0); close() empties the first and removes the drained pairs from the second; a received FIN removes the
   owner's entries from both *)
Definition tbl_pc (p : pc) : bool := match p with PO0 | PO0b _ | PC1 _ _ => true | _ => false end.

Inductive tables_effect (s s' : state) (t : tid) : Prop :=
| TE_same : table s' = table s -> rtable s' = rtable s -> tbl_pc (pcof s t) = false -> tables_effect s s' t
| TE_drain : forall a k, pcof s t = PC1 a k -> table s' = [] -> rtable s' = minus_pairs (rtable s) (table s) ->
    (forall sid u, In (sid, u) (table s) -> t_rclosed (tasks s' u) = true) -> tables_effect s s' t
| TE_fin : forall o, pcof s t = PIdle -> table s' = remove_owner (table s) o ->
    (rtable s' = remove_owner (rtable s) o \/ (rtable s' = rtable s /\ lookup_owner (rtable s) o = None)) ->
    (lookup_owner (rtable s) o <> None -> t_rclosed (tasks s' o) = true) -> tables_effect s s' t
| TE_first : pcof s t = PO0 -> table s' = table s -> rtable s' = rtable s ++ [(next_sid s, t)] -> tables_effect s s' t
| TE_second : forall sid, pcof s t = PO0b sid -> table s' = table s ++ [(sid, t)] -> rtable s' = rtable s -> tables_effect s s' t.

Lemma te_framed a s s' t :
  framed a s' -> table a = table s -> rtable a = rtable s -> tbl_pc (pcof s t) = false -> tables_effect s s' t.
Proof. intros F T R N. apply TE_same; [rewrite (fr_table F); exact T | rewrite (fr_rtable F); exact R | exact N]. Qed.

Lemma step_tables s t s' : step s t = Some s' -> tables_effect s s' t.
Proof.
  intros H.
  destruct (step_shape_of s t s' H) as [[_ _ _ _ _ _ E|s1 a k B ->|ev rest P _ _ ->|d sid rest P _ _ ->|a k P ->]
                                        |k f P _ ->|q Q _ ->|k f P ->|k held P _ _ ->|k held P _ _ ->].
  - destruct E as [P _ F|? ? P _ _ F|P _ F|P _ _ _ F|? ? ? P _ _ _ _ F|? ? P F|P F|sid P F];
      try (apply (te_framed _ s s' t F); [reflexivity | reflexivity | rewrite P; reflexivity]).
    + apply (te_framed s s s' t F); [reflexivity | reflexivity | destruct (pcof s t); try discriminate; reflexivity].
    + apply (TE_first s s' t P); [apply (fr_table F) | apply (fr_rtable F)].
    + apply (TE_second s s' t sid P); [apply (fr_table F) | apply (fr_rtable F)].
  - destruct (begun_framed s t a k s1 B). apply (te_framed _ s _ t (framed_enter_close s1 t a k)); try assumption.
    destruct B as [[-> _]|[-> _]]; reflexivity.
  - destruct (feed_tables (popped s t rest) ev) as [[T R]|(o & T & R)].
    + apply TE_same; [exact T | exact R | rewrite P; reflexivity].
    + apply (TE_fin s _ t o P); [exact T | destruct R as [[R _]|R]; [left; exact R | right; exact R]|].
      intros N. apply (tr_finish tr_stream_kept). destruct R as [[_ C]|[_ L]]; [exact C | destruct (N L)].
  - apply (te_framed _ s _ t (framed_push_step (popped s t rest) t _)); [reflexivity | reflexivity | rewrite P; reflexivity].
  - apply (TE_drain s _ t a k P); [apply (fr_table (framed_drain_step s t _)) | apply (fr_rtable (framed_drain_step s t _))|].
    intros sid u Hin. apply (tr_set_pc tr_stream_kept). rewrite <- (table_wake s) in Hin.
    apply (drain_releases _ _ _ _ Hin).
  - apply TE_same; [reflexivity | reflexivity | rewrite P; reflexivity].
  - apply TE_same; [reflexivity | reflexivity | destruct (pcof s t); try contradiction; reflexivity].
  - apply TE_same; [reflexivity | reflexivity | rewrite P; reflexivity].
  - apply (te_framed _ s _ t (framed_write_fail s t _ _ _)); [reflexivity | reflexivity | rewrite P; reflexivity].
  - apply (te_framed _ s _ t (framed_write_ok s t k _ _)); [reflexivity | reflexivity | rewrite P; reflexivity].
Qed.

Lemma in_remove_owner_inv tb e o : In e (remove_owner tb o) -> In e tb.
Proof. unfold remove_owner. intros H. apply filter_In in H. exact (proj1 H). Qed.
Lemma in_minus_pairs_inv l d e : In e (minus_pairs l d) -> In e l.
Proof. unfold minus_pairs. intros H. apply filter_In in H. exact (proj1 H). Qed.

Lemma step_table_in s t s' e :
  step s t = Some s' -> In e (table s') -> In e (table s) \/ (exists sid, pcof s t = PO0b sid /\ e = (sid, t)).
Proof.
  intros H Hin. destruct (step_tables s t s' H) as [T _ _|a k _ T _ _|o _ T _ _|_ T _|sid P T _]; rewrite T in Hin.
  - left. exact Hin.
  - destruct Hin.
  - left. eapply in_remove_owner_inv. exact Hin.
  - left. exact Hin.
  - apply in_app_or in Hin. destruct Hin as [Hin|[<-|[]]]; [left; exact Hin | right; exists sid; split; [exact P | reflexivity]].
Qed.

Lemma step_rtable_in s t s' e :
  step s t = Some s' -> In e (rtable s') -> In e (rtable s) \/ (pcof s t = PO0 /\ e = (next_sid s, t)).
Proof.
  intros H Hin. destruct (step_tables s t s' H) as [_ R _|a k _ _ R _|o _ _ [R|[R _]] _|P _ R|sid _ _ R]; rewrite R in Hin.
  - left. exact Hin.
  - left. eapply in_minus_pairs_inv. exact Hin.
  - left. eapply in_remove_owner_inv. exact Hin.
  - left. exact Hin.
  - apply in_app_or in Hin. destruct Hin as [Hin|[<-|[]]]; [left; exact Hin | right; split; [exact P | reflexivity]].
  - left. exact Hin.
Qed.

Definition reader_ok (s : state) : Prop :=
  forall u sid, t_sid (tasks s u) = Some sid -> In (sid, u) (rtable s) \/ t_rclosed (tasks s u) = true.

Definition keeps_stream (x y : task) : Prop :=
  (t_sid y = t_sid x \/ t_sid y = None) /\ (t_rclosed x = true -> t_rclosed y = true).

Lemma ks_with_res x r : keeps_stream x (with_res x r). Proof. apply (tr_res tr_stream_kept). Qed.
Lemma ks_with_pc x p : keeps_stream x (with_pc x p). Proof. apply (tr_pc tr_stream_kept). Qed.
Lemma ks_clear x : keeps_stream x (clear_sid x). Proof. apply (tr_clear tr_stream_kept). Qed.

Lemma step_keeps s t s' u :
  step s t = Some s' -> (u = t -> pcof s t <> PO0) -> stream_kept (tasks s u) (tasks s' u).
Proof.
  intros H NP. destruct (Nat.eq_dec u t) as [->|Hne]; [|apply (step_bystander _ tr_stream_kept s t s' u H Hne)].
  pose proof (step_self_stream s t s' H) as K. unfold stream_ok in K.
  destruct (pcof s t); try exact K. destruct (NP eq_refl eq_refl).
Qed.

Lemma step_sid s t s' u sid :
  step s t = Some s' -> t_sid (tasks s' u) = Some sid ->
  (u = t /\ pcof s t = PO0 /\ sid = next_sid s) \/ ((u <> t \/ pcof s t <> PO0) /\ t_sid (tasks s u) = Some sid).
Proof.
  intros H E. destruct (Nat.eq_dec u t) as [->|Hu].
  - pose proof (step_self_stream s t s' H) as K. unfold stream_ok in K.
    destruct (pcof s t);
      first [left; split; [reflexivity | split; [reflexivity | congruence]]
            | right; split; [right; discriminate | destruct K as [[K|K] _]; congruence]].
  - right. split; [left; exact Hu | destruct (step_bystander _ tr_stream_kept s t s' u H Hu) as [[K|K] _]; congruence].
Qed.

Lemma in_remove_owner tb sid u o : In (sid, u) tb -> u <> o -> In (sid, u) (remove_owner tb o).
Proof.
  intros H Hne. unfold remove_owner. apply filter_In. split; [exact H|]. cbn.
  apply negb_true_iff. apply Nat.eqb_neq. exact Hne.
Qed.

Lemma pair_eqb_eq a b : pair_eqb a b = true -> a = b.
Proof.
  unfold pair_eqb. intros H. apply andb_prop in H. destruct H as [A B]. apply N.eqb_eq in A. apply Nat.eqb_eq in B.
  destruct a, b. cbn in *. subst. reflexivity.
Qed.
Lemma minus_pairs_not_in l d e : In e (minus_pairs l d) -> ~ In e d.
Proof.
  unfold minus_pairs. intros H Hd. apply filter_In in H. destruct H as [_ H]. apply negb_true_iff in H.
  assert (existsb (pair_eqb e) d = true) as X.
  { apply existsb_exists. exists e. split; [exact Hd|]. unfold pair_eqb. rewrite N.eqb_refl, Nat.eqb_refl. reflexivity. }
  congruence.
Qed.

Lemma in_minus_pairs_dec l d e : In e l -> In e d \/ In e (minus_pairs l d).
Proof.
  intros H. destruct (existsb (pair_eqb e) d) eqn:E.
  - left. apply existsb_exists in E. destruct E as (x & Hx & Ex). apply pair_eqb_eq in Ex. subst x. exact Hx.
  - right. apply filter_In. split; [exact H | rewrite E; reflexivity].
Qed.

Theorem step_reader_ok s t s' : reader_ok s -> step s t = Some s' -> reader_ok s'.
Proof.
  intros R H u sid Hs.
  assert ((u = t -> pcof s t <> PO0) -> In (sid, u) (rtable s) \/ t_rclosed (tasks s' u) = true) as Old.
  { intros NP. destruct (step_keeps s t s' u H NP) as [[E|E] M]; [|congruence].
    rewrite E in Hs. destruct (R u sid Hs) as [A|A]; [left; exact A | right; apply M; exact A]. }
  destruct (step_tables s t s' H) as [_ Rt NP|a k P _ Rt C|o P _ Rt C|P _ Rt|x P _ Rt]; rewrite ?Rt.
  - apply Old. intros _ E. rewrite E in NP. discriminate.
  - destruct Old as [A|A]; [rewrite P; discriminate | | right; exact A].
    destruct (in_minus_pairs_dec _ (table s) _ A) as [B|B]; [right; apply (C sid u B) | left; exact B].
  - destruct Old as [A|A]; [rewrite P; discriminate | | right; exact A].
    destruct Rt as [Rt|[Rt _]]; rewrite Rt; [|left; exact A].
    destruct (Nat.eq_dec u o) as [->|Hne]; [right; apply C | left; apply in_remove_owner; assumption].
    intros L. exact (lookup_none_not_in _ _ L sid A).
  - destruct (Nat.eq_dec u t) as [->|Hne].
    + pose proof (step_self_stream s t s' H) as K. unfold stream_ok in K. rewrite P in K.
      left. apply in_or_app. right. left. congruence.
    + destruct Old as [A|A]; [congruence | left; apply in_or_app; left; exact A | right; exact A].
  - apply Old. rewrite P. discriminate.
Qed.

Lemma reader_ok_init progs buf pend : reader_ok (init progs buf pend).
Proof. intros u sid H. cbn in H. discriminate. Qed.

Definition is_pre (p : pc) : bool := match p with PO0 | PO0b _ => true | _ => false end.

Lemma move_not_pre s t p prog q prog' :
  move s t p prog q prog' -> closed s = true -> is_pre p = false -> is_pre q = false.
Proof. intros M. destruct M; cbn; intros; first [reflexivity | congruence]. Qed.

(* the pcs at which a task is moved only by its own steps *)
Definition self_moved (p : pc) : bool :=
  match p with PW2wait _ _ | PC2wait _ _ | PPwait | PIdle => false | _ => true end.
Lemma other_self_moved s t s' u :
  Inv s -> step s t = Some s' -> u <> t -> self_moved (pcof s u) = true -> pcof s' u = pcof s u.
Proof.
  intros HI H Hne P.
  destruct (step_others s t s' HI H u Hne) as [E|k f A _ _|a k A _ _ _|_ A _ _|A _ _ _];
    [exact E | | | |]; rewrite A in P; discriminate.
Qed.
Lemma other_not_pre s t s' u :
  Inv s -> step s t = Some s' -> u <> t -> is_pre (pcof s u) = false -> is_pre (pcof s' u) = false.
Proof.
  intros HI H Hne P.
  destruct (step_others s t s' HI H u Hne) as [E|k f _ B _|a k _ B _ _|_ _ _ [B|B]|_ _ _ [B|[f B]]];
    rewrite ?B; try reflexivity. rewrite E. exact P.
Qed.

(* The windows of open_stream. The closed flag is examined BEFORE the id is allocated, and the stream is put
   into the two tables by two separate lock acquisitions; no lock spans any two of these. So a stream can be
   registered (in one table, then in the other) after close() has drained them. Such an entry is never handed to a
   caller: its owner is still inside open_stream, the SYN it is about to submit fails on the closed flag, and
   open_stream returns the error (the handle is dropped). *)
Definition in_window (p : pc) (sid : N) : Prop := p = PO1 sid \/ p = PW0 WkOpen (syn_frame sid).
Definition in_window_r (p : pc) (sid : N) : Prop := p = PO0b sid \/ in_window p sid.
Definition late_entry (s : state) (sid : N) (u : tid) : Prop :=
  in_window (pcof s u) sid \/ (t_sid (tasks s u) = None /\ is_pre (pcof s u) = false).
Definition late_entry_r (s : state) (sid : N) (u : tid) : Prop :=
  in_window_r (pcof s u) sid \/ (t_sid (tasks s u) = None /\ is_pre (pcof s u) = false).

(* in every state: an inbound queue without a `streams` entry belongs to an open_stream between its two inserts *)
Definition half_ok (s : state) : Prop :=
  forall sid u, In (sid, u) (rtable s) -> In (sid, u) (table s) \/ pcof s u = PO0b sid.

Lemma remove_owner_not_in tb sid o : ~ In (sid, o) (remove_owner tb o).
Proof. unfold remove_owner. intros H. apply filter_In in H. destruct H as [_ X]. cbn in X. rewrite Nat.eqb_refl in X. discriminate. Qed.

Theorem window_second_insert s t sid :
  pcof s t = PO0b sid -> exists s1, step s t = Some s1 /\ pcof s1 t = PO1 sid /\ closed s1 = closed s /\ wire s1 = wire s.
Proof.
  intros P. unfold pcof in P. eexists. split; [unfold step; rewrite P; reflexivity|].
  unfold pcof. cbn. rewrite upd_same. repeat split; reflexivity.
Qed.
Lemma po0_next s t s' : step s t = Some s' -> pcof s t = PO0 -> pcof s' t = PO0b (next_sid s).
Proof. intros H P. pose proof (step_self s t s' H) as M. rewrite P in M. inversion M. reflexivity. Qed.
Lemma po0b_next s t s' sid : step s t = Some s' -> pcof s t = PO0b sid -> pcof s' t = PO1 sid.
Proof. intros H P. pose proof (step_self s t s' H) as M. rewrite P in M. inversion M. reflexivity. Qed.

Theorem step_half_ok s t s' : Inv s -> half_ok s -> step s t = Some s' -> half_ok s'.
Proof.
  intros HI Hh H sid u Hin.
  assert (forall x, pcof s u = PO0b x -> (u = t -> False) -> pcof s' u = PO0b x) as Keep.
  { intros x A Hne. rewrite <- A. apply (other_self_moved s t s' u HI H); [exact Hne | rewrite A; reflexivity]. }
  destruct (step_tables s t s' H) as [T R NP|a k P T R _|o P T R _|P T R|x P T R].
  - rewrite R in Hin. destruct (Hh sid u Hin) as [A|A]; [left; rewrite T; exact A | right].
    apply (Keep sid A). intros ->. rewrite A in NP. discriminate.
  - rewrite R in Hin. pose proof (in_minus_pairs_inv _ _ _ Hin) as Hin0. pose proof (minus_pairs_not_in _ _ _ Hin) as Nt.
    destruct (Hh sid u Hin0) as [A|A]; [contradiction | right]. apply (Keep sid A). intros ->. congruence.
  - assert (In (sid, u) (rtable s) /\ u <> o) as [Hin0 Huo].
    { destruct R as [R|[R L]]; rewrite R in Hin.
      - split; [eapply in_remove_owner_inv; exact Hin | intros ->; exact (remove_owner_not_in _ _ _ Hin)].
      - split; [exact Hin | intros ->; exact (lookup_none_not_in _ _ L sid Hin)]. }
    destruct (Hh sid u Hin0) as [A|A]; [left; rewrite T; apply in_remove_owner; assumption | right].
    apply (Keep sid A). intros ->. congruence.
  - rewrite R in Hin. apply in_app_or in Hin. destruct Hin as [Hin|[E|[]]].
    + destruct (Hh sid u Hin) as [A|A]; [left; rewrite T; exact A | right]. apply (Keep sid A). intros ->. congruence.
    + injection E as <- <-. right. exact (po0_next s t s' H P).
  - rewrite R in Hin. destruct (Hh sid u Hin) as [A|A]; [left; rewrite T; apply in_or_app; left; exact A|].
    destruct (Nat.eq_dec u t) as [->|Hne]; [|right; apply (Keep sid A Hne)].
    rewrite P in A. inversion A; subst. left. rewrite T. apply in_or_app. right. left. reflexivity.
Qed.

Lemma half_ok_init progs buf pend : half_ok (init progs buf pend).
Proof. intros sid u H. destruct H. Qed.

Definition drained_ok (s : state) : Prop :=
  closed s = true ->
  (exists x, is_pc1 (pcof s x) = true) \/
  ((forall sid u, In (sid, u) (table s) -> late_entry s sid u) /\
   (forall sid u, In (sid, u) (rtable s) -> late_entry_r s sid u)).

Lemma step_out s t s' u :
  Inv s -> step s t = Some s' -> closed s = true ->
  t_sid (tasks s u) = None /\ is_pre (pcof s u) = false -> t_sid (tasks s' u) = None /\ is_pre (pcof s' u) = false.
Proof.
  intros HI H C [Sn Np].
  assert (u = t -> pcof s t <> PO0) as N0 by (intros -> E; rewrite E in Np; discriminate).
  split; [destruct (step_keeps s t s' u H N0) as [[E|E] _]; congruence|].
  destruct (Nat.eq_dec u t) as [->|Hne]; [exact (move_not_pre s t _ _ _ _ (step_self s t s' H) C Np) | eapply other_not_pre; eauto].
Qed.

Lemma step_window s t s' sid :
  step s t = Some s' -> closed s = true -> in_window (pcof s t) sid -> late_entry s' sid t.
Proof.
  intros H C [W|W]; unfold step in H; unfold pcof in W; rewrite W, ?C in H; inversion H; subst;
    unfold late_entry, in_window, pcof; cbn; rewrite upd_same; cbn; auto.
Qed.

Lemma step_late s t s' sid u :
  Inv s -> step s t = Some s' -> closed s = true -> late_entry s sid u -> late_entry s' sid u.
Proof.
  intros HI H C [W|N]; [|right; eapply step_out; eauto].
  destruct (Nat.eq_dec u t) as [->|Hne]; [eapply step_window; eauto | left].
  rewrite (other_self_moved s t s' u HI H Hne); [exact W | destruct W as [W|W]; rewrite W; reflexivity].
Qed.

Lemma step_late_r s t s' sid u :
  Inv s -> step s t = Some s' -> closed s = true -> late_entry_r s sid u -> late_entry_r s' sid u.
Proof.
  intros HI H C [W|N]; [|right; eapply step_out; eauto].
  destruct (Nat.eq_dec u t) as [->|Hne].
  - destruct W as [W|W]; [left; right; left; eapply po0b_next; eauto|].
    destruct (step_window s t s' sid H C W) as [W'|N']; [left; right; exact W' | right; exact N'].
  - left. rewrite (other_self_moved s t s' u HI H Hne); [exact W | destruct W as [W|[W|W]]; rewrite W; reflexivity].
Qed.

Theorem step_drained_ok s t s' : Inv s -> half_ok s -> drained_ok s -> step s t = Some s' -> drained_ok s'.
Proof.
  intros HI Hh D H C'. destruct (closed s) eqn:C.
  - destruct (D C) as [[x Hx]|[Rt Rr]].
    + destruct (Nat.eq_dec x t) as [->|Hne].
      * (* the drain itself *)
        right. destruct (step_tables s t s' H) as [_ _ NP|a' k' P T R _|o P _ _ _|P _ _|y P _ _];
          try (rewrite P in Hx; discriminate); [destruct (pcof s t); discriminate|].
        split; [rewrite T; intros sid u []|].
        intros sid u Hin. rewrite R in Hin.
        pose proof (in_minus_pairs_inv _ _ _ Hin) as Hin0. pose proof (minus_pairs_not_in _ _ _ Hin) as Nt.
        destruct (Hh sid u Hin0) as [A|A]; [contradiction|].
        left. left. rewrite <- A. apply (other_self_moved s t s' u HI H); [congruence | rewrite A; reflexivity].
      * left. exists x. rewrite (other_self_moved s t s' x HI H Hne); [exact Hx | destruct (pcof s x); try discriminate; reflexivity].
    + right. split; intros sid u Hin.
      * destruct (step_table_in s t s' (sid, u) H Hin) as [Hold|(y & P & E)]; [eapply step_late; eauto|].
        injection E as -> ->. left. left. eapply po0b_next; eauto.
      * destruct (step_rtable_in s t s' (sid, u) H Hin) as [Hold|[P E]]; [eapply step_late_r; eauto|].
        injection E as -> ->. left. left. exact (po0_next s t s' H P).
  - left. exact (closing_step s t s' H C C').
Qed.

Lemma drained_ok_init progs buf pend : drained_ok (init progs buf pend).
Proof. intros C. discriminate. Qed.

Definition quiescent_close (s : state) : Prop := forall x, in_close (pcof s x) = false.

Definition death_inv (s : state) : Prop := shut_ok s /\ half_ok s /\ drained_ok s /\ reader_ok s.

Lemma run_death_inv sched progs buf pend : death_inv (run (init progs buf pend) sched).
Proof.
  apply (run_invariant death_inv); [|apply inv_init|].
  - intros s t s' HI (S & Hh & D & R) H.
    split; [eapply step_shut_ok; eauto | split; [eapply step_half_ok; eauto | split; [eapply step_drained_ok; eauto | eapply step_reader_ok; eauto]]].
  - split; [apply shut_ok_init | split; [apply half_ok_init | split; [apply drained_ok_init | apply reader_ok_init]]].
Qed.

Theorem dead_session_released sched progs buf pend :
  let s := run (init progs buf pend) sched in
  closed s = true -> quiescent_close s ->
  (shut s = true \/ stalled s = true) /\
  (forall sid u, In (sid, u) (table s) -> late_entry s sid u) /\
  (forall sid u, In (sid, u) (rtable s) -> late_entry_r s sid u).
Proof.
  intros s C Q. destruct (run_death_inv sched progs buf pend) as (S & _ & D & _). fold s in S, D. split.
  - destruct (S C) as [A|[x A]]; [unfold shutd in A; apply orb_true_iff in A; exact A | rewrite Q in A; discriminate].
  - destruct (D C) as [[x A]|A]; [|exact A]. specialize (Q x). destruct (pcof s x); discriminate.
Qed.

Lemma readers_of_late s :
  reader_ok s -> (forall sid u, In (sid, u) (rtable s) -> late_entry_r s sid u) ->
  forall u sid, t_sid (tasks s u) = Some sid -> t_rclosed (tasks s u) = true \/ in_window_r (pcof s u) sid.
Proof.
  intros R T u sid H. destruct (R u sid H) as [A|A]; [|left; exact A].
  destruct (T sid u A) as [W|[Sn _]]; [right; exact W | congruence].
Qed.

(* in a dead session every task that holds a stream handle has that stream's queue closed: its
   reads return the data already queued and then end-of-stream, they never park. The only streams exempt are
   those whose open_stream call is still in its window (registered after the drain, SYN not yet attempted):
   no caller has their handle yet, and it never gets it (window_open_fails). *)
Theorem dead_session_readers sched progs buf pend :
  let s := run (init progs buf pend) sched in
  closed s = true -> quiescent_close s ->
  forall u sid, t_sid (tasks s u) = Some sid -> t_rclosed (tasks s u) = true \/ in_window_r (pcof s u) sid.
Proof.
  intros s C Q.
  destruct (run_death_inv sched progs buf pend) as (_ & _ & _ & R).
  destruct (dead_session_released sched progs buf pend C Q) as (_ & _ & T).
  exact (readers_of_late s R T).
Qed.

(* the open_stream call that registered its stream in the window fails: three steps after the first insert it has
   returned SessionClosed, nothing was written, and the task holds no handle *)
Theorem window_open_fails s t sid :
  closed s = true -> pcof s t = PO1 sid ->
  exists s1 s2, step s t = Some s1 /\ step s1 t = Some s2 /\
    wire s2 = wire s /\ pending s2 = pending s /\ table s2 = table s /\
    t_sid (tasks s2 t) = None /\ exists pre, t_res (tasks s2 t) = pre ++ [ResClosed].
Proof.
  intros C P. unfold pcof in P.
  eexists. eexists. split; [unfold step; rewrite P; reflexivity|].
  split; [unfold step; cbn; rewrite upd_same; cbn; rewrite C; reflexivity|].
  cbn. rewrite !upd_same. cbn. repeat split; eexists; reflexivity.
Qed.

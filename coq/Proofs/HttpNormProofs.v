(* HttpNormProofs.v -- C17: the normalised Host line names the same authority (decimal printing of the port is
   exact), so the forwarded request is again a well-formed request for the same target --
   except that a port 443 is omitted like a port 80 (known finding C17-host-port-elision, witnessed below). *)
From Coq Require Import List NArith ZArith Lia Bool.
From AnyTLS Require Import Bytes Generated HttpText Http HttpTextFacts HttpParseProofs.
Import ListNotations.
Open Scope N_scope.

Lemma auth_port_u16 a d : wf_authb a = true -> d < 65536 -> auth_port a d < 65536.
Proof.
  unfold wf_authb, auth_port. intros H Hd. apply andb_true_iff in H. destruct H as [_ H].
  destruct (au_port a) as [[|x ds]|]; try assumption.
  apply wf_digits_split in H. lia.
Qed.

Lemma norm_host_hdr_wf h p : wf_hostb h = true -> p < 65536 -> wf_host_hdrb (norm_host_hdr h p) = true.
Proof.
  intros Hh Hp. unfold wf_host_hdrb, norm_host_hdr, wf_authb. cbn [hh_name hh_pre hh_post hh_auth au_host au_port].
  rewrite Hh. destruct ((p =? 80) || (p =? 443)); [reflexivity|].
  unfold wf_digitsb, digits_value. rewrite h_dec_digits_lt10, h_dec_value. apply N.leb_le. lia.
Qed.

Lemma norm_host_hdr_port h p : auth_port (hh_auth (norm_host_hdr h p)) 80 = if p =? 443 then 80 else p.
Proof.
  unfold norm_host_hdr, auth_port. cbn [hh_auth au_port].
  destruct (N.eqb_spec p 80) as [->|N80]; [reflexivity|]. destruct (N.eqb_spec p 443) as [->|N443]; [reflexivity|].
  cbn [orb]. pose proof (h_dec_value p) as V. pose proof (h_dec_nonempty p) as E.
  destruct (h_dec p); [congruence|exact V].
Qed.

Lemma origin_form_names_same_target r host port :
  wf_req r = true -> spec_target r = Some (host, port) ->
  spec_target (origin_form r) = Some (host, if port =? 443 then 80 else port) /\
  is_connect_req (origin_form r) = false /\
  wf_host_hdrb (match r_host (origin_form r) with Some hh => hh | None => norm_host_hdr (HName []) 0 end) = true.
Proof.
  intros Hwf Hs. destruct (target_authority_spec _ _ _ Hwf Hs) as (a & d & HTA & Hwa & Hd & -> & ->).
  destruct (wf_auth_parts _ Hwa) as [Hwh _].
  pose proof (auth_port_u16 _ _ Hwa Hd) as Hp.
  unfold origin_form. rewrite HTA.
  (* with or without a Host line in r, the forwarded form has an origin-form target and the normalised Host *)
  destruct (r_host r) as [hh|]; unfold spec_target, is_connect_req; cbn [r_target r_host].
  all: split; [|split; [reflexivity|now apply norm_host_hdr_wf]].
  all: unfold auth_target; rewrite norm_host_hdr_port; reflexivity.
Qed.

(* the known finding, formally: a well-formed request for port 443 whose forwarded form names port 80 *)
Lemma known_host_port_elision :
  exists r, wf_req r = true /\ is_connect_req r = false /\
            spec_target r = Some ([97], 443) /\ spec_target (origin_form r) = Some ([97], 80).
Proof.
  exists {| r_method := [71; 69; 84]; r_target := TOrigin [47]; r_version := k_http11; r_before := [];
            r_host := Some {| hh_name := [72; 111; 115; 116]; hh_pre := [32];
                              hh_auth := {| au_host := HName [97]; au_port := Some [4; 4; 3] |}; hh_post := [] |};
            r_after := []; r_body := [] |}.
  vm_compute. repeat split.
Qed.

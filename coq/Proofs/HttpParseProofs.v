(* HttpParseProofs.v -- C17: split_host_port, determine_target, parse_http_request and build_forward_request
   against the abstract syntax of Model/Http.v (per function, then composed). *)
From Coq Require Import List NArith ZArith Lia Bool String.
From AnyTLS Require Import Bytes BytesFacts Generated HttpText Http HttpTextFacts.
Import ListNotations.
Open Scope N_scope.

(* the spelled-out literals are the ASCII strings they stand for *)
Lemma lit_ok :
  k_connect = bs "CONNECT"%string /\ k_host_colon = bs "host:"%string /\ k_http = bs "http://"%string /\
  k_https = bs "https://"%string /\ k_scheme_sep = bs "://"%string /\ k_http11 = bs "HTTP/1.1"%string /\
  k_host_sp = bs "Host: "%string /\ k_crlf = [13; 10] /\
  [c_colon; c_slash; c_qmark; c_star; c_lbr; c_rbr; c_sp] = bs ":/?*[] "%string.
Proof. vm_compute. repeat split. Qed.

Lemma forallb_nof (g f : N -> bool) s :
  (forall c, g c = true -> f c = false) -> forallb g s = true -> nof f s = true.
Proof.
  intros H Hs. unfold nof. eapply forallb_imp; [|exact Hs]. intros c Hc. cbn. now rewrite (H c Hc).
Qed.

Definition clsb (c : N) : bool :=       (* a byte that is none of: white space, '/', '?' *)
  negb (h_is_ws c) && negb (c =? 47) && negb (c =? 63).

Lemma clsb_facts c : clsb c = true -> h_is_ws c = false /\ is_authority_end c = false.
Proof.
  unfold clsb, is_authority_end, c_slash, c_qmark. intros [[Hw H47]%andb_prop H63]%andb_prop.
  apply negb_true_iff in Hw, H47, H63. now rewrite H47, H63.
Qed.

Lemma v6_char_facts c : v6_charb c = true -> clsb c = true /\ (c =? 91) = false /\ (c =? 93) = false.
Proof.
  unfold v6_charb, clsb, c_slash, c_qmark, c_lbr, c_rbr.
  intros [[[[[Hw _]%andb_prop H47]%andb_prop H63]%andb_prop H91]%andb_prop H93]%andb_prop.
  rewrite Hw, H47, H63. split; [reflexivity|]. split; now apply negb_true_iff.
Qed.

Lemma host_char_v6 c : host_charb c = true -> v6_charb c = true /\ (c =? 58) = false.
Proof.
  unfold host_charb, v6_charb, c_colon.
  intros [[[[[[Hw Ha]%andb_prop H58]%andb_prop H47]%andb_prop H63]%andb_prop H91]%andb_prop H93]%andb_prop.
  rewrite Hw, Ha, H47, H63, H91, H93. split; [reflexivity|now apply negb_true_iff].
Qed.

Lemma digit_char_facts d : d < 10 -> clsb (48 + d) = true /\ (48 + d =? 58) = false.
Proof.
  intros H. assert (E : forall k, k < 48 \/ 57 < k -> (48 + d =? k) = false) by (intros k Hk; apply N.eqb_neq; lia).
  unfold clsb, h_is_ws. rewrite (proj2 (N.leb_gt (48 + d) 13)) by lia. rewrite !E by lia. now rewrite andb_false_r.
Qed.

Lemma wf_digits_split ds : wf_digitsb ds = true -> digitsb ds = true /\ digits_value ds <= 65535.
Proof. unfold wf_digitsb. intros [H L]%andb_prop. split; [exact H|now apply N.leb_le]. Qed.

Lemma digits_text_cls (g : N -> bool) ds :
  digitsb ds = true -> (forall d, d < 10 -> g (48 + d) = true) -> forallb g (digits_text ds) = true.
Proof.
  unfold digitsb, digits_text. rewrite !forallb_forall. intros Hd Hg x Hx.
  apply in_map_iff in Hx. destruct Hx as (d & <- & Hin). apply Hg, N.ltb_lt, Hd, Hin.
Qed.

Lemma wf_auth_parts a : wf_authb a = true ->
  wf_hostb (au_host a) = true /\ match au_port a with Some ds => wf_digitsb ds = true | None => True end.
Proof. unfold wf_authb. rewrite andb_true_iff. intros [Hh Hp]. split; [exact Hh|]. now destruct (au_port a). Qed.

Lemma host_chars_v6 s : forallb host_charb s = true -> forallb v6_charb s = true /\ nof (fun x => x =? 58) s = true.
Proof.
  intros H. split.
  - eapply forallb_imp; [|exact H]. intros c Hc. now apply host_char_v6 in Hc.
  - eapply forallb_nof; [|exact H]. intros c Hc. now apply host_char_v6 in Hc.
Qed.

Lemma v6_chars_nof s : forallb v6_charb s = true ->
  no_ws s = true /\ nof (fun x => x =? 91) s = true /\ nof (fun x => x =? 93) s = true.
Proof.
  intros H. split; [|split].
  - eapply forallb_nof; [|exact H]. intros c Hc. apply v6_char_facts in Hc. destruct Hc as (Hc & _).
    now apply clsb_facts in Hc.
  - eapply forallb_nof; [|exact H]. intros c Hc. now apply v6_char_facts in Hc.
  - eapply forallb_nof; [|exact H]. intros c Hc. now apply v6_char_facts in Hc.
Qed.

Lemma render_auth_cls a : wf_authb a = true -> forallb clsb (render_auth a) = true.
Proof.
  intros H. apply wf_auth_parts in H. destruct H as [Hh Hp]. unfold render_auth. rewrite forallb_app.
  apply andb_true_iff. split.
  - assert (Hv : forall s, forallb v6_charb s = true -> forallb clsb s = true).
    { intros s. apply forallb_imp. intros c Hc. now apply v6_char_facts in Hc. }
    destruct (au_host a) as [s|s]; cbn [wf_hostb render_host] in *; apply andb_true_iff in Hh; destruct Hh as [_ Hh].
    + now apply Hv, host_chars_v6.
    + cbn [forallb]. now rewrite forallb_app, (Hv _ Hh).
  - destruct (au_port a) as [ds|]; [|reflexivity]. cbn [forallb]. apply digits_text_cls.
    + now apply wf_digits_split.
    + intros d Hd. now apply digit_char_facts.
Qed.

Lemma render_auth_no_ws a : wf_authb a = true -> no_ws (render_auth a) = true.
Proof.
  intros H. eapply forallb_nof; [|exact (render_auth_cls a H)]. intros c Hc. now apply clsb_facts in Hc.
Qed.

Lemma render_auth_no_end a : wf_authb a = true -> nof is_authority_end (render_auth a) = true.
Proof.
  intros H. eapply forallb_nof; [|exact (render_auth_cls a H)]. intros c Hc. now apply clsb_facts in Hc.
Qed.

Lemma render_auth_nonempty a : wf_authb a = true -> h_nil (render_auth a) = false.
Proof.
  intros H. apply wf_auth_parts in H. destruct H as [H _]. unfold render_auth. rewrite h_nil_app.
  destruct (au_host a) as [s|s]; [|reflexivity]. cbn [wf_hostb render_host] in *.
  apply andb_true_iff in H. destruct H as [H _]. apply negb_true_iff in H. now rewrite H.
Qed.

Lemma clean_host_plain s :
  no_ws s = true -> nof (fun x => x =? 91) s = true -> nof (fun x => x =? 93) s = true -> clean_host s = s.
Proof.
  intros H1 H2 H3. unfold clean_host, h_trim, h_trim_matches, c_lbr, c_rbr.
  rewrite (trim_by_keep _ _ H1), (trim_by_keep _ _ H2), (trim_by_keep _ _ H3). reflexivity.
Qed.

Lemma clean_host_bracketed s :
  no_ws s = true -> nof (fun x => x =? 91) s = true -> nof (fun x => x =? 93) s = true ->
  clean_host (91 :: s ++ [93]) = s.
Proof.
  intros H1 H2 H3. unfold clean_host, h_trim, h_trim_matches, c_lbr, c_rbr.
  rewrite (trim_by_keep h_is_ws (91 :: s ++ [93]))
    by (unfold no_ws in H1; rewrite nof_cons, nof_app, H1; reflexivity).
  replace (91 :: s ++ [93]) with ([91] ++ (s ++ [93]) ++ []) by (now rewrite app_nil_r).
  rewrite (trim_by_strip (fun x => x =? 91) [91] (s ++ [93]) [] eq_refl eq_refl)
    by (rewrite nof_app, H2; reflexivity).
  exact (trim_by_strip (fun x => x =? 93) [] s [93] eq_refl eq_refl H3).
Qed.

Lemma host_text_clean h : wf_hostb h = true -> clean_host (render_host h) = host_text h.
Proof.
  destruct h as [s|s]; cbn [wf_hostb render_host host_text]; intros H; apply andb_true_iff in H; destruct H as [_ H].
  - apply host_chars_v6 in H. destruct H as [H _]. destruct (v6_chars_nof _ H) as (Hw & Hl & Hr). now apply clean_host_plain.
  - destruct (v6_chars_nof _ H) as (Hw & Hl & Hr). now apply clean_host_bracketed.
Qed.

Lemma parse_u16_digits d ds :
  wf_digitsb (d :: ds) = true -> h_parse_u16 (digits_text (d :: ds)) = Some (digits_value (d :: ds)).
Proof.
  intros H. apply wf_digits_split in H. destruct H as [H1 H2].
  unfold h_parse_u16, digits_text, digits_value. now apply parse_uint_digits.
Qed.

Lemma shp_no_colon hs default : nof (fun x => x =? 58) hs = true -> split_host_port hs default = (clean_host hs, default).
Proof. intros H. unfold split_host_port, c_colon. now rewrite (h_rfind_none _ _ H). Qed.

(* the text after the last colon of hs ++ rest, given that rest has none *)
Lemma shp_last_colon hs rest default :
  nof (fun x => x =? 58) rest = true ->
  nof (fun x => x =? 58) hs = true \/ h_contains_byte 93 (hs ++ 58 :: rest) = true ->
  split_host_port (hs ++ 58 :: rest) default =
  if h_nil rest then (clean_host hs, default)
  else match h_parse_u16 rest with
       | Some p => (clean_host hs, p)
       | None => (clean_host (hs ++ 58 :: rest), default)
       end.
Proof.
  intros Hn Hh. unfold split_host_port, c_colon, c_rbr.
  rewrite (h_rfind_last _ _ _ Hn), takeN_app_exact, dropN_app_plus.
  replace (h_contains_byte 58 hs && negb (h_contains_byte 93 (hs ++ 58 :: rest))) with false; [reflexivity|].
  destruct Hh as [Hh|Hh]; [rewrite contains_nof, Hh|rewrite Hh, andb_false_r]; reflexivity.
Qed.

Lemma shp_with_port hs ds default :
  nof (fun x => x =? 58) hs = true \/ h_contains_byte 93 hs = true ->
  wf_digitsb ds = true ->
  split_host_port (hs ++ 58 :: digits_text ds) default =
  (clean_host hs, match ds with d :: ds0 => digits_value (d :: ds0) | [] => default end).
Proof.
  intros Hh Hd. rewrite shp_last_colon.
  - destruct ds as [|d ds]; [reflexivity|]. now rewrite (parse_u16_digits _ _ Hd).
  - apply (digits_text_cls (fun c => negb (c =? 58))); [now apply wf_digits_split|].
    intros d L. apply digit_char_facts in L. now rewrite (proj2 L).
  - destruct Hh as [Hh|Hh]; [now left|right]. now rewrite contains_app, Hh.
Qed.

Lemma shp_auth a default : wf_authb a = true -> split_host_port (render_auth a) default = auth_target a default.
Proof.
  intros Hw. apply wf_auth_parts in Hw. destruct Hw as [Hh Hp].
  unfold render_auth, auth_target, auth_port, c_colon. rewrite <- (host_text_clean _ Hh).
  assert (C93 : forall x y, h_contains_byte 93 (x ++ y ++ [93]) = true).
  { intros x y. rewrite !contains_app. change (h_contains_byte 93 [93]) with true. now rewrite !orb_true_r. }
  destruct (au_host a) as [s|s]; cbn [wf_hostb render_host] in *; apply andb_true_iff in Hh; destruct Hh as [Hc Hh].
  - destruct (host_chars_v6 _ Hh) as [_ H58]. destruct (au_port a) as [ds|].
    + apply shp_with_port; [now left|exact Hp].
    + rewrite app_nil_r. now apply shp_no_colon.
  - unfold c_lbr, c_rbr. destruct (au_port a) as [ds|].
    + apply shp_with_port; [right|exact Hp]. apply (C93 [91]).
    + (* the last colon is inside the brackets; what follows it ends in ']' and is not a port *)
      rewrite app_nil_r. unfold c_colon in Hc. destruct (contains_split_last _ _ Hc) as (x & y & -> & Hy).
      replace (91 :: (x ++ 58 :: y) ++ [93]) with ((91 :: x) ++ 58 :: (y ++ [93]))
        by (cbn; rewrite <- app_assoc; reflexivity).
      rewrite shp_last_colon.
      * replace (h_nil (y ++ [93])) with false by (now destruct y).
        unfold h_parse_u16. now rewrite parse_uint_bad_last.
      * rewrite nof_app, Hy. reflexivity.
      * right. apply (C93 (91 :: x) (58 :: y)).
Qed.

Lemma nof_lower f s :
  (forall c, f c = true -> h_lower c = c) -> nof f (h_to_lower s) = true -> nof f s = true.
Proof.
  intros Hf. induction s as [|x s IH]; [reflexivity|].
  cbn [h_to_lower map]. rewrite !nof_cons_true. intros [H1 H2]. split; [|now apply IH].
  destruct (f x) eqn:E; [|reflexivity]. rewrite (Hf x E) in H1. congruence.
Qed.

Lemma lower_fix_below c : c < 65 -> h_lower c = c.
Proof. intros H. apply h_lower_idem_noupper. apply N.ltb_lt in H. now rewrite H. Qed.

Lemma lower_fix_ws c : h_is_ws c = true -> h_lower c = c.
Proof.
  unfold h_is_ws. intros H. apply lower_fix_below.
  destruct (N.leb_spec c 13), (N.eqb_spec c 32); [lia..|]. now rewrite andb_false_r in H.
Qed.

Lemma lower_fix_eq k c : k < 65 -> (c =? k) = true -> h_lower c = c.
Proof. intros Hk H. apply N.eqb_eq in H. apply lower_fix_below. lia. Qed.

Lemma no_ws_no_cr s : no_ws s = true -> no_cr s = true.
Proof.
  unfold no_ws, no_cr, nof. apply forallb_imp. intros c H. destruct (N.eqb_spec c 13) as [->|]; [discriminate|reflexivity].
Qed.

Lemma to_lower_length s : length (h_to_lower s) = length s.
Proof. apply map_length. Qed.

Lemma ows_ws s : owsb s = true -> forallb h_is_ws s = true.
Proof.
  unfold owsb. apply forallb_imp. intros c H.
  destruct (N.eqb_spec c 32); [subst; reflexivity|]. destruct (N.eqb_spec c 9); [subst; reflexivity|discriminate].
Qed.

Lemma ows_no_cr s : owsb s = true -> no_cr s = true.
Proof.
  unfold owsb, no_cr, nof. apply forallb_imp. intros c H.
  destruct (N.eqb_spec c 13); [subst; discriminate|reflexivity].
Qed.

Lemma wf_host_hdr_parts hh : wf_host_hdrb hh = true ->
  h_to_lower (hh_name hh) = [104; 111; 115; 116] /\ owsb (hh_pre hh) = true /\ owsb (hh_post hh) = true /\
  wf_authb (hh_auth hh) = true.
Proof.
  unfold wf_host_hdrb. intros [[[Hn Hpre]%andb_prop Hpost]%andb_prop Ha]%andb_prop. apply bytes_eqb_eq in Hn.
  now repeat split.
Qed.

Lemma host_line_is hh : wf_host_hdrb hh = true -> is_host_line (render_host_line hh) = true.
Proof.
  intros H. apply wf_host_hdr_parts in H. destruct H as (H & _).
  unfold is_host_line, render_host_line. rewrite to_lower_app, H. reflexivity.
Qed.

Lemma host_line_value hh :
  wf_host_hdrb hh = true -> h_trim (dropN 5 (render_host_line hh)) = render_auth (hh_auth hh).
Proof.
  intros H. apply wf_host_hdr_parts in H. destruct H as (H & Hpre & Hpost & Ha).
  assert (L : 5 = lenN (hh_name hh) + 1) by (unfold lenN; rewrite <- to_lower_length, H; reflexivity).
  unfold render_host_line. rewrite L, dropN_app_plus.
  change (dropN 1 (c_colon :: ?r)) with r.
  unfold h_trim. apply trim_by_strip; [now apply ows_ws | now apply ows_ws | now apply render_auth_no_ws].
Qed.

Lemma host_line_no_cr hh : wf_host_hdrb hh = true -> no_cr (render_host_line hh) = true.
Proof.
  intros H. apply wf_host_hdr_parts in H. destruct H as (H & Hpre & Hpost & Ha).
  unfold render_host_line, no_cr, c_colon. rewrite nof_app, nof_cons, !nof_app.
  rewrite (nof_lower (fun c => c =? 13) (hh_name hh)).
  - fold (no_cr (hh_pre hh)) (no_cr (hh_post hh)) (no_cr (render_auth (hh_auth hh))).
    rewrite (ows_no_cr _ Hpre), (ows_no_cr _ Hpost), (no_ws_no_cr _ (render_auth_no_ws _ Ha)). reflexivity.
  - intros c. apply lower_fix_eq. lia.
  - rewrite H. reflexivity.
Qed.

Lemma host_line_nonempty hh : h_nil (render_host_line hh) = false.
Proof. unfold render_host_line. rewrite h_nil_app. cbn. apply andb_false_r. Qed.

Lemma plain_line_facts l : plain_lineb l = true -> h_nil l = false /\ no_cr l = true /\ is_host_line l = false.
Proof.
  unfold plain_lineb. intros [[Hn Hc]%andb_prop Hh]%andb_prop. apply negb_true_iff in Hn, Hh.
  repeat split; try assumption.
  eapply forallb_nof; [|exact Hc]. intros c [[H13 _]%andb_prop _]%andb_prop. now apply negb_true_iff.
Qed.

Lemma plain_lines_cons x ls : forallb plain_lineb (x :: ls) = true ->
  h_nil x = false /\ is_host_line x = false /\ forallb plain_lineb ls = true.
Proof.
  intros [Hx H]%andb_prop. destruct (plain_line_facts _ Hx) as (E1 & _ & E2). exact (conj E1 (conj E2 H)).
Qed.

Lemma find_host_before before l after :
  forallb plain_lineb before = true -> is_host_line l = true ->
  find_host_header (before ++ l :: after) = Some (h_trim (dropN 5 l)).
Proof.
  intros Hb Hl. induction before as [|x before IH]; cbn [app find_host_header].
  - now rewrite Hl.
  - destruct (plain_lines_cons _ _ Hb) as (_ & E & Hb'). rewrite E. now apply IH.
Qed.

Lemma find_host_none ls : forallb plain_lineb ls = true -> find_host_header ls = None.
Proof.
  induction ls as [|x ls IH]; intros H; [reflexivity|]. destruct (plain_lines_cons _ _ H) as (_ & E & H').
  cbn [find_host_header]. rewrite E. now apply IH.
Qed.

Lemma exists_host_none ls : forallb plain_lineb ls = true -> existsb is_host_line ls = false.
Proof.
  induction ls as [|x ls IH]; intros H; [reflexivity|]. destruct (plain_lines_cons _ _ H) as (_ & E & H').
  cbn [existsb]. rewrite E. now apply IH.
Qed.

Lemma render_lines_cons l ls : render_lines (l :: ls) = (l ++ k_crlf) ++ render_lines ls.
Proof. reflexivity. Qed.

Lemma rewrite_plain hv ls : forallb plain_lineb ls = true -> concat (map (rewrite_line hv) ls) = render_lines ls.
Proof.
  induction ls as [|x ls IH]; intros H; [reflexivity|]. destruct (plain_lines_cons _ _ H) as (E1 & E2 & H').
  cbn [map concat]. rewrite render_lines_cons, (IH H'). unfold rewrite_line. now rewrite E1, E2.
Qed.

Lemma render_lines_app a b : render_lines (a ++ b) = render_lines a ++ render_lines b.
Proof. unfold render_lines. now rewrite map_app, concat_app. Qed.

Lemma dt_connect m a hs :
  h_eq_ignore_case m k_connect = true -> wf_authb a = true ->
  determine_target m (render_auth a) hs = HOk (host_text (au_host a), auth_port a 443, [], true).
Proof.
  intros Hm Ha. unfold determine_target. rewrite Hm. change http_default_port_connect with 443.
  rewrite (shp_auth _ _ Ha). reflexivity.
Qed.

Lemma dt_origin m p hs a :
  h_eq_ignore_case m k_connect = false ->
  h_starts_with [c_slash] p || h_starts_with [c_star] p = true ->
  find_host_header hs = Some (render_auth a) -> wf_authb a = true ->
  determine_target m p hs = HOk (host_text (au_host a), auth_port a 80, p, false).
Proof.
  intros Hm Hp Hf Ha. unfold determine_target. rewrite Hm, Hf.
  assert (Hs : h_starts_with k_http (h_to_lower p) = false /\ h_starts_with k_https (h_to_lower p) = false).
  { destruct p as [|c p']; [discriminate|]. unfold c_slash, c_star in Hp. cbn [h_starts_with] in Hp.
    destruct (N.eqb_spec 47 c); [subst; split; reflexivity|].
    destruct (N.eqb_spec 42 c); [subst; split; reflexivity|discriminate]. }
  destruct Hs as [-> ->]. cbn [orb]. rewrite (render_auth_nonempty _ Ha).
  change http_default_port_http with 80. rewrite (shp_auth _ _ Ha), Hp. reflexivity.
Qed.

Lemma scheme_facts https sch :
  wf_schemeb https sch = true ->
  h_to_lower sch = (if https then [104; 116; 116; 112; 115] else [104; 116; 116; 112]) /\
  nof (fun x => x =? 58) sch = true /\ no_ws sch = true /\ h_nil sch = false.
Proof.
  unfold wf_schemeb. intros H. apply bytes_eqb_eq in H. split; [exact H|]. split; [|split].
  - apply (nof_lower (fun c => c =? 58)); [intros c; apply lower_fix_eq; lia|]. rewrite H. now destruct https.
  - apply (nof_lower h_is_ws); [apply lower_fix_ws|]. rewrite H. now destruct https.
  - destruct sch; [destruct https; discriminate|reflexivity].
Qed.

Lemma dt_absolute m https sch a pq hs :
  h_eq_ignore_case m k_connect = false -> wf_schemeb https sch = true -> wf_authb a = true -> wf_pqb pq = true ->
  determine_target m (sch ++ k_scheme_sep ++ render_auth a ++ pq) hs =
  HOk (host_text (au_host a), auth_port a (if https then 443 else 80),
       (* the path Http.spec_path gives for TAbsolute *)
       match pq with [] => [c_slash] | c :: _ => if c =? c_slash then pq else c_slash :: pq end, false).
Proof.
  intros Hm Hs Ha Hq. destruct (scheme_facts _ _ Hs) as (Hl & H58 & _ & _).
  unfold determine_target. rewrite Hm, 2 to_lower_app. change (h_to_lower k_scheme_sep) with k_scheme_sep.
  rewrite Hl. replace (h_starts_with k_http _) with (negb https) by now destruct https.
  replace (h_starts_with k_https _) with https by now destruct https. rewrite orb_comm, orb_negb_r.
  assert (Hfind : h_find k_scheme_sep (sch ++ k_scheme_sep ++ render_auth a ++ pq) = Some (lenN sch)).
  { unfold k_scheme_sep. change ([58; 47; 47] ++ render_auth a ++ pq) with (58 :: [47; 47] ++ render_auth a ++ pq).
    now apply h_find_first. }
  rewrite Hfind, dropN_app_plus.
  replace (dropN 3 (k_scheme_sep ++ render_auth a ++ pq)) with (render_auth a ++ pq) by reflexivity.
  replace (if https then http_default_port_https else http_default_port_http) with (if https then 443 else 80)
    by now destruct https.
  generalize (if https then 443 else 80). intros port.
  pose proof (render_auth_no_end _ Ha) as Hend.
  unfold wf_pqb in Hq. apply andb_true_iff in Hq. destruct Hq as [_ Hq]. destruct pq as [|c pq'].
  - rewrite app_nil_r, (h_find_if_none _ _ Hend), (render_auth_nonempty _ Ha), (shp_auth _ _ Ha). reflexivity.
  - rewrite (h_find_if_first _ _ _ _ Hend Hq), takeN_app_exact, dropN_app_exact.
    rewrite (render_auth_nonempty _ Ha), (shp_auth _ _ Ha).
    apply orb_true_iff in Hq. destruct Hq as [->%N.eqb_eq | ->%N.eqb_eq]; reflexivity.
Qed.

Lemma visible_no_ws s : forallb (fun c => negb (h_is_ws c) && (c <? 128)) s = true -> no_ws s = true.
Proof. apply forallb_nof. intros c. rewrite andb_true_iff, negb_true_iff. tauto. Qed.

Lemma token_facts s : tokenb s = true -> h_nil s = false /\ no_ws s = true.
Proof.
  unfold tokenb. rewrite andb_true_iff, negb_true_iff. intros [Hn H]. split; [exact Hn|now apply visible_no_ws].
Qed.

Lemma split_crlf_lines (ls : list bytes) :
  forallb no_cr ls = true -> h_split_crlf (render_lines ls ++ k_crlf) = ls ++ [[]; []].
Proof.
  induction ls as [|l ls IH]; intros H; [reflexivity|]. apply andb_true_iff in H. destruct H as [Hl H].
  rewrite render_lines_cons, <- !app_assoc. unfold k_crlf at 1. cbn [app].
  rewrite (split_crlf_line _ _ Hl). cbn [app]. f_equal. now apply IH.
Qed.

Lemma filter_nonempty_lines (ls : list bytes) :
  forallb (fun l => negb (h_nil l)) ls = true ->
  filter (fun l => negb (h_nil l)) (ls ++ [[]; []]) = ls.
Proof.
  induction ls as [|l ls IH]; intros H; [reflexivity|]. apply andb_true_iff in H. destruct H as [Hl H].
  cbn [app filter]. rewrite Hl. f_equal. now apply IH.
Qed.

Lemma split_request_line m t v :
  tokenb m = true -> h_nil t = false -> no_ws t = true -> tokenb v = true ->
  h_split_whitespace (m ++ c_sp :: t ++ c_sp :: v) = [m; t; v].
Proof.
  intros Hm Ht1 Ht2 Hv. apply token_facts in Hm. apply token_facts in Hv.
  destruct Hm as [Hm1 Hm2]. destruct Hv as [Hv1 Hv2].
  rewrite split_ws_tok; [|assumption|now apply h_nil_false_iff|reflexivity].
  rewrite split_ws_tok; [|assumption|now apply h_nil_false_iff|reflexivity].
  rewrite split_ws_last; [reflexivity|assumption|now apply h_nil_false_iff].
Qed.

Definition wf_lines (ls : list bytes) : Prop :=
  forallb no_cr ls = true /\ forallb (fun l => negb (h_nil l)) ls = true.

Lemma parse_rendered m t v ls body :
  tokenb m = true -> h_nil t = false -> no_ws t = true -> tokenb v = true -> wf_lines ls ->
  parse_http_request ((m ++ c_sp :: t ++ c_sp :: v ++ k_crlf) ++ render_lines ls ++ k_crlf) body =
  match determine_target m t ls with
  | HErr => HErr
  | HOk (host, port, path, is_connect) =>
      HOk {| hp_method := m; hp_version := v; hp_host := host; hp_port := port; hp_path := path;
             hp_connect := is_connect; hp_headers := ls; hp_body := body |}
  end.
Proof.
  intros Hm Ht1 Ht2 Hv [Hl1 Hl2].
  assert (Hcr : no_cr (m ++ c_sp :: t ++ c_sp :: v) = true).
  { destruct (token_facts _ Hm) as [_ Wm]. destruct (token_facts _ Hv) as [_ Wv].
    apply no_ws_no_cr in Wm. apply no_ws_no_cr in Wv. pose proof (no_ws_no_cr _ Ht2) as Wt.
    unfold no_cr, c_sp in *. rewrite nof_app, nof_cons, nof_app, nof_cons, Wm, Wv, Wt. reflexivity. }
  replace ((m ++ c_sp :: t ++ c_sp :: v ++ k_crlf) ++ render_lines ls ++ k_crlf)
    with ((m ++ c_sp :: t ++ c_sp :: v) ++ 13 :: 10 :: (render_lines ls ++ k_crlf)).
  2:{ unfold k_crlf. rewrite <- !app_assoc. cbn [app]. rewrite <- !app_assoc. cbn [app].
      rewrite <- !app_assoc. reflexivity. }
  unfold parse_http_request.
  rewrite (split_crlf_line _ _ Hcr), (split_crlf_lines _ Hl1), (split_request_line _ _ _ Hm Ht1 Ht2 Hv).
  rewrite (filter_nonempty_lines _ Hl2). reflexivity.
Qed.

Lemma wf_req_parts r : wf_req r = true ->
  tokenb (r_method r) = true /\ tokenb (r_version r) = true /\ wf_targetb r = true /\
  forallb plain_lineb (r_before r) = true /\ forallb plain_lineb (r_after r) = true /\
  forall hh, r_host r = Some hh -> wf_host_hdrb hh = true.
Proof.
  unfold wf_req. intros [[[[[Hm Hv]%andb_prop Ht]%andb_prop Hb]%andb_prop Ha]%andb_prop Hh]%andb_prop.
  repeat split; try assumption. intros hh E. now rewrite E in Hh.
Qed.

Lemma wf_target_parts r : wf_targetb r = true ->
  match r_target r with
  | TAuthority a => h_eq_ignore_case (r_method r) k_connect = true /\ wf_authb a = true
  | TAbsolute https sch a pq =>
      h_eq_ignore_case (r_method r) k_connect = false /\ wf_schemeb https sch = true /\ wf_authb a = true /\
      wf_pqb pq = true
  | TOrigin p =>
      h_eq_ignore_case (r_method r) k_connect = false /\ tokenb p = true /\
      h_starts_with [c_slash] p || h_starts_with [c_star] p = true /\ exists hh, r_host r = Some hh
  end.
Proof.
  unfold wf_targetb. destruct (r_target r) as [a|https sch a pq|p].
  - intros [Hc Ha]%andb_prop. now split.
  - intros [[[Hc Hs]%andb_prop Ha]%andb_prop Hq]%andb_prop. apply negb_true_iff in Hc. now repeat split.
  - intros [[[Hc Hp]%andb_prop Hs]%andb_prop Hh]%andb_prop. apply negb_true_iff in Hc. repeat split; try assumption.
    destruct (r_host r) as [hh|]; [now exists hh|discriminate].
Qed.

Lemma wf_lines_plain ls : forallb plain_lineb ls = true -> wf_lines ls.
Proof.
  intros H. split; (eapply forallb_imp; [|exact H]); intros l Hl;
    destruct (plain_line_facts _ Hl) as (E1 & E2 & _); [exact E2|now rewrite E1].
Qed.

Lemma wf_lines_app a b : wf_lines a -> wf_lines b -> wf_lines (a ++ b).
Proof. intros [A1 A2] [B1 B2]. split; rewrite forallb_app; apply andb_true_iff; split; assumption. Qed.

Lemma wf_header_lines r : wf_req r = true -> wf_lines (header_lines r).
Proof.
  intros H. destruct (wf_req_parts _ H) as (_ & _ & _ & Hb & Ha & Hh).
  apply wf_lines_app; [now apply wf_lines_plain|]. apply wf_lines_plain in Ha.
  destruct (r_host r) as [hh|]; [|exact Ha]. destruct Ha as [A1 A2].
  split; cbn [forallb]; apply andb_true_iff; (split; [|assumption]).
  - apply host_line_no_cr, Hh. reflexivity.
  - now rewrite host_line_nonempty.
Qed.

Lemma find_host_header_lines r hh :
  wf_req r = true -> r_host r = Some hh -> find_host_header (header_lines r) = Some (render_auth (hh_auth hh)).
Proof.
  intros H E. destruct (wf_req_parts _ H) as (_ & _ & _ & Hb & _ & Hh). specialize (Hh hh E).
  unfold header_lines. rewrite E, (find_host_before _ _ _ Hb (host_line_is _ Hh)). now rewrite host_line_value.
Qed.

Lemma target_authority_spec r host port :
  wf_req r = true -> spec_target r = Some (host, port) ->
  exists a d, target_authority r = Some (a, d) /\ wf_authb a = true /\ d < 65536 /\
              host = host_text (au_host a) /\ port = auth_port a d.
Proof.
  intros H. destruct (wf_req_parts _ H) as (_ & _ & Ht & _ & _ & Hh). apply wf_target_parts in Ht.
  unfold target_authority, spec_target, auth_target. destruct (r_target r) as [a|https sch a pq|p].
  - destruct Ht as [_ Ha]. intros E. inversion E. exists a, 443. repeat split. exact Ha.
  - destruct Ht as (_ & _ & Ha & _). intros E. inversion E. exists a, (if https then 443 else 80).
    repeat split; [exact Ha|now destruct https].
  - destruct (r_host r) as [hh|]; [|discriminate]. intros E. inversion E. exists (hh_auth hh), 80.
    repeat split. now apply wf_host_hdr_parts, Hh.
Qed.

Lemma render_target_facts r :
  wf_targetb r = true -> h_nil (render_target (r_target r)) = false /\ no_ws (render_target (r_target r)) = true.
Proof.
  intros H. apply wf_target_parts in H. destruct (r_target r) as [a|https sch a pq|p]; cbn [render_target].
  - destruct H as [_ Ha]. split; [now apply render_auth_nonempty | now apply render_auth_no_ws].
  - destruct H as (_ & Hs & Ha & Hq). destruct (scheme_facts _ _ Hs) as (_ & _ & Hws & Hne). split.
    + rewrite h_nil_app, Hne. reflexivity.
    + unfold wf_pqb in Hq. apply andb_true_iff in Hq. destruct Hq as [Hq _]. apply visible_no_ws in Hq.
      apply render_auth_no_ws in Ha. unfold no_ws in *. now rewrite !nof_app, Hws, Ha, Hq.
  - destruct H as (_ & Hp & _). now apply token_facts.
Qed.

(* parse of a rendered well-formed request: everything the parser returns, explicitly *)
Definition expected_parse (r : hreq) (host : bytes) (port : N) : hparsed :=
  {| hp_method := r_method r; hp_version := r_version r; hp_host := host; hp_port := port;
     hp_path := spec_path r; hp_connect := is_connect_req r; hp_headers := header_lines r; hp_body := r_body r |}.

Lemma parse_render r :
  wf_req r = true ->
  exists host port, spec_target r = Some (host, port) /\
    parse_http_request (render_head r) (r_body r) = HOk (expected_parse r host port).
Proof.
  intros H. destruct (wf_req_parts _ H) as (Hm & Hv & Ht & _ & _ & Hh).
  destruct (render_target_facts _ Ht) as [Tn Tw].
  unfold render_head. rewrite (parse_rendered _ _ _ _ _ Hm Tn Tw Hv (wf_header_lines _ H)).
  pose proof (find_host_header_lines r) as Hf. apply wf_target_parts in Ht. revert Ht Hf.
  unfold spec_target, expected_parse, spec_path, is_connect_req.
  destruct (r_target r) as [a|https sch a pq|p]; cbn [render_target].
  - intros [Hc Ha] _. rewrite (dt_connect _ _ _ Hc Ha). do 2 eexists. split; reflexivity.
  - intros (Hc & Hs & Ha & Hq) _. rewrite (dt_absolute _ _ _ _ _ _ Hc Hs Ha Hq). do 2 eexists. split; reflexivity.
  - intros (Hc & _ & Hp & hh & E) Hf. rewrite E.
    rewrite (dt_origin _ _ _ (hh_auth hh) Hc Hp (Hf hh H E)); [do 2 eexists; split; reflexivity|].
    now apply wf_host_hdr_parts, Hh.
Qed.

Lemma host_value_render h port :
  wf_hostb h = true ->
  host_header_value (host_text h) port = render_auth (hh_auth (norm_host_hdr h port)).
Proof.
  intros Hw. unfold host_header_value, norm_host_hdr, render_auth. cbn [hh_auth au_host au_port].
  assert (E : (if h_contains_byte c_colon (host_text h) then c_lbr :: host_text h ++ [c_rbr] else host_text h)
              = render_host h).
  { destruct h as [s|s]; cbn [wf_hostb host_text render_host] in *; apply andb_true_iff in Hw; destruct Hw as [Hc Hw].
    - destruct (host_chars_v6 _ Hw) as [_ H58]. unfold c_colon. now rewrite contains_nof, H58.
    - now rewrite Hc. }
  rewrite E. destruct ((port =? 80) || (port =? 443)); [now rewrite app_nil_r|].
  unfold digits_text. now rewrite h_dec_digits_text.
Qed.

Lemma host_line_out_render h port :
  wf_hostb h = true -> host_line_out (host_text h) port = render_host_line (norm_host_hdr h port) ++ k_crlf.
Proof.
  intros Hw. unfold host_line_out, render_host_line. rewrite (host_value_render _ _ Hw).
  cbn [hh_name hh_pre hh_post norm_host_hdr hh_auth]. rewrite app_nil_r.
  unfold k_host_sp, c_colon, c_sp. cbn [app]. reflexivity.
Qed.

Lemma rewrite_lines_some hv before hl after :
  forallb plain_lineb before = true -> forallb plain_lineb after = true ->
  is_host_line hl = true -> h_nil hl = false ->
  concat (map (rewrite_line hv) (before ++ hl :: after))
    ++ (if existsb is_host_line (before ++ hl :: after) then [] else hv) =
  render_lines before ++ hv ++ render_lines after.
Proof.
  intros Hb Ha Hl Hn. rewrite map_app, concat_app. cbn [map concat].
  rewrite (rewrite_plain _ _ Hb), (rewrite_plain _ _ Ha).
  unfold rewrite_line at 1. rewrite Hn, Hl.
  rewrite existsb_app. cbn [existsb]. rewrite Hl, orb_true_r. cbn [orb].
  now rewrite app_nil_r.
Qed.

Lemma rewrite_lines_none hv ls :
  forallb plain_lineb ls = true ->
  concat (map (rewrite_line hv) ls) ++ (if existsb is_host_line ls then [] else hv) = render_lines ls ++ hv.
Proof. intros H. now rewrite (rewrite_plain _ _ H), (exists_host_none _ H). Qed.

Lemma spec_path_nonempty r : wf_targetb r = true -> is_connect_req r = false -> h_nil (spec_path r) = false.
Proof.
  intros H. apply wf_target_parts in H. unfold is_connect_req, spec_path.
  destruct (r_target r) as [a|https sch a pq|p]; intros Hc.
  - discriminate.
  - destruct pq as [|c pq']; [reflexivity|]. now destruct (c =? c_slash).
  - destruct H as (_ & Hp & _). now apply token_facts.
Qed.

Lemma forward_render r :
  wf_req r = true -> is_connect_req r = false ->
  exists host port,
    spec_target r = Some (host, port) /\
    parse_http_request (render_head r) (r_body r) = HOk (expected_parse r host port) /\
    build_forward_request (expected_parse r host port) = render_head (origin_form r).
Proof.
  intros Hwf Hnc. destruct (parse_render _ Hwf) as (host & port & Hs & Hp).
  exists host, port. split; [exact Hs|]. split; [exact Hp|].
  destruct (wf_req_parts _ Hwf) as (_ & _ & Ht & Hb & Ha & Hh).
  pose proof (spec_path_nonempty _ Ht Hnc) as Hpath.
  destruct (target_authority_spec _ _ _ Hwf Hs) as (a & d & HTA & Hwa & _ & -> & ->).
  destruct (wf_auth_parts _ Hwa) as [Hwh _]. unfold origin_form. rewrite HTA.
  unfold build_forward_request, expected_parse.
  cbn [hp_method hp_version hp_host hp_port hp_path hp_connect hp_headers hp_body].
  rewrite Hpath, (host_line_out_render _ _ Hwh). unfold render_head, header_lines.
  destruct (r_host r) as [hh|] eqn:EH;
    cbn [r_method r_target r_version r_before r_host r_after render_target].
  - f_equal. rewrite app_assoc. specialize (Hh hh eq_refl).
    rewrite (rewrite_lines_some _ _ _ _ Hb Ha (host_line_is _ Hh) (host_line_nonempty _)).
    now rewrite render_lines_app, render_lines_cons, <- !app_assoc.
  - f_equal. rewrite app_assoc.
    assert (Hall : forallb plain_lineb (r_before r ++ r_after r) = true) by (now rewrite forallb_app, Hb, Ha).
    rewrite (rewrite_lines_none _ _ Hall).
    rewrite render_lines_app with (b := [_]). rewrite render_lines_cons.
    now rewrite app_nil_r, <- !app_assoc.
Qed.

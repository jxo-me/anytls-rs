(* PaddingProofs.v -- the packet shaper of Model/Padding.v (C04, C05): sizes drawn from a well-formed scheme line
   are in range; what shape_loop writes for a line is accepted by the reference acceptor of that line; the padding
   it adds decodes as waste frames after the payload's own frames; packets are numbered in order and the
   authentication preamble has the shape of line 0. *)
From Coq Require Import List NArith ZArith Lia Bool.
From AnyTLS Require Import Bytes Cmd Generated FactsCore FactsPadding Frame Text Padding BytesFacts FrameProofs.
Import ListNotations.
Open Scope N_scope.

Definition entry_wf (e : entry) : Prop :=
  match e with ECheck => True | ERange lo hi => (1 <= lo <= hi /\ hi <= 65535)%Z end.

Lemma filter_map_Forall {A B} (f : A -> option B) (P : B -> Prop) l :
  (forall x y, f x = Some y -> P y) -> Forall P (filter_map f l).
Proof.
  intros H. induction l as [|x l IH]; cbn [filter_map]; [constructor|].
  destruct (f x) eqn:E; [constructor; eauto | exact IH].
Qed.

Lemma parse_entry_wf part e : parse_entry (Some 65535%Z) part = Some e -> entry_wf e.
Proof.
  unfold parse_entry. destruct (bytes_eqb (trim part) lit_c).
  - intros H; inversion H; exact I.
  - destruct (split_once 45 (trim part)) as [[a b]|]; [|discriminate].
    set (lo := or0 (parse_i64 (trim a))). set (hi := or0 (parse_i64 (trim b))).
    destruct ((lo <=? 0)%Z || (hi <=? 0)%Z) eqn:E0; [discriminate|].
    apply orb_false_iff in E0. destruct E0 as [E1 E2].
    apply Z.leb_gt in E1. apply Z.leb_gt in E2.
    destruct (65535 <? Z.max lo hi)%Z eqn:E3; [discriminate|].
    apply Z.ltb_ge in E3. intros H; inversion H; subst. cbn. lia.
Qed.

Lemma line_entries_wf sc k : Forall entry_wf (line_entries sc k).
Proof.
  unfold line_entries, line_entries_gen. rewrite padding_size_bound_u16.
  destruct (map_get (u32_to_string k) (sc_map sc)); [|constructor].
  unfold spec_entries. apply filter_map_Forall. intros x y. apply parse_entry_wf.
Qed.

Definition size_ok (s : Z) : Prop := s = check_mark \/ (1 <= s <= 65535)%Z.

Lemma i32_of_small z : (-2147483648 <= z < 2147483648)%Z -> i32_of z = z.
Proof. intros H. unfold i32_of. rewrite Z.mod_small by lia. lia. Qed.

Lemma sizes_range lo hi es draws :
  entry_wf (ERange lo hi) -> draws_ok (ERange lo hi :: es) draws ->
  exists s draws', sizes (ERange lo hi :: es) draws = s :: sizes es draws' /\
                   (lo <= s <= hi)%Z /\ draws_ok es draws'.
Proof.
  intros Hwf Hd. cbn in Hwf. cbn [sizes draws_ok] in *. destruct (lo =? hi)%Z eqn:E.
  - exists lo, draws. rewrite i32_of_small by lia. repeat split; [lia | lia | exact Hd].
  - destruct draws as [|d ds]; [contradiction|]. destruct Hd as [Hr Hd].
    exists d, ds. rewrite i32_of_small by lia. repeat split; [lia | lia | exact Hd].
Qed.

Lemma sizes_ok es : forall draws,
  Forall entry_wf es -> draws_ok es draws -> Forall size_ok (sizes es draws).
Proof.
  induction es as [|e es IH]; intros draws Hwf Hd; [constructor|].
  inversion Hwf as [|? ? He Hes]; subst. destruct e as [|lo hi].
  - constructor; [left; reflexivity | apply IH; assumption].
  - destruct (sizes_range lo hi es draws He Hd) as (s & draws' & -> & Hr & Hd'). cbn in He.
    constructor; [right; lia | apply IH; assumption].
Qed.

Lemma concat_wr b : concat (wr b) = b.
Proof. destruct b; cbn; [reflexivity | rewrite app_nil_r; reflexivity]. Qed.

Lemma wr_nonempty b : Forall (fun w : bytes => w <> []) (wr b).
Proof. destruct b; cbn; constructor; [discriminate | constructor]. Qed.

Lemma wr_cons (b : bytes) : b <> [] -> wr b = [b].
Proof. destruct b; [congruence | reflexivity]. Qed.

Lemma waste_bytes_waste n : n <= 65535 -> waste_bytes (u16_of n) n = waste n.
Proof. intros H. unfold waste_bytes, waste, u16_of. rewrite N.mod_small by lia. reflexivity. Qed.

Lemma usize_small s : (1 <= s <= 65535)%Z -> usize_of_i32 s = Z.to_N s.
Proof. intros H. unfold usize_of_i32. destruct (Z.ltb_spec s 0); [lia | reflexivity]. Qed.

Lemma lenN_waste n : lenN (waste n) = 7 + n.
Proof.
  unfold waste, be32, be16. cbn [app]. repeat rewrite lenN_cons. rewrite lenN_zeros. lia.
Qed.

Lemma shape_check rest buf :
  shape_loop (check_mark :: rest) buf = if is_nil buf then Writes [] else shape_loop rest buf.
Proof. cbn [shape_loop]. rewrite Z.eqb_refl. reflexivity. Qed.

(* one size that fits a record: the four outcomes, with every cast and overflow test discharged once *)
Lemma shape_step s rest buf : (1 <= s <= 65535)%Z ->
  let sz := Z.to_N s in
  shape_loop (s :: rest) buf =
  if sz <? lenN buf then and_then [takeN sz buf] (shape_loop rest (dropN sz buf))
  else match buf with
       | [] => and_then [waste sz] (shape_loop rest [])
       | _ => if lenN buf + 7 <? sz
              then and_then [buf ++ waste (sz - (lenN buf + 7))] (shape_loop rest [])
              else and_then [buf] (shape_loop rest [])
       end.
Proof.
  intros Hs sz. cbn [shape_loop].
  assert (s <> check_mark) as Hne by (rewrite check_mark_neg1; lia).
  apply Z.eqb_neq in Hne. rewrite Hne, usize_small, header_size_7 by assumption. fold sz.
  assert (1 <= sz <= 65535) as Hsz by (unfold sz; lia).
  destruct (N.ltb_spec sz (lenN buf)) as [Hlt|Hge].
  - rewrite wr_cons; [reflexivity|]. apply lenN_pos_iff. rewrite lenN_takeN; lia.
  - destruct buf as [|b buf'].
    + cbn [lenN length N.of_nat]. change (0 <? 0) with false. cbn iota.
      destruct (N.ltb_spec isize_max (7 + sz)) as [Hbad|_]; [unfold isize_max in Hbad; lia|].
      rewrite waste_bytes_waste by lia. reflexivity.
    + set (p := b :: buf') in *.
      destruct (N.ltb_spec 0 (lenN p)) as [_|Hz]; [|unfold p, lenN in Hz; cbn in Hz; lia].
      destruct (N.ltb_spec 0 (sz - (lenN p + 7))), (N.ltb_spec (lenN p + 7) sz); try lia.
      * destruct (N.ltb_spec isize_max (7 + (sz - (lenN p + 7)))) as [Hbad|_]; [unfold isize_max in Hbad; lia|].
        rewrite waste_bytes_waste by lia. reflexivity.
      * reflexivity.
Qed.

Definition pad_ok (n : N) : Prop := n <= 65535.

Lemma in_range_true lo hi x : (lo <= x <= hi)%Z -> in_range lo hi x = true.
Proof. intros H. unfold in_range. apply andb_true_iff. split; apply Z.leb_le; lia. Qed.

Lemma shape_accepted es : forall draws p,
  Forall entry_wf es -> draws_ok es draws ->
  exists ws, shape_loop (sizes es draws) p = Writes ws /\ accepts es p ws = true /\
             Forall (fun w : bytes => w <> []) ws.
Proof.
  induction es as [|e es IH]; intros draws p Hwf Hd.
  - exists (wr p). split; [reflexivity|]. split; [|apply wr_nonempty].
    destruct p; [reflexivity|apply bytes_eqb_refl].
  - inversion Hwf as [|? ? He Hes]; subst. destruct e as [|lo hi].
    + cbn [sizes draws_ok] in *. rewrite shape_check. destruct p as [|b p']; cbn [is_nil accepts].
      * exists []. repeat split. constructor.
      * apply IH; assumption.
    + destruct (sizes_range lo hi es draws He Hd) as (s & draws' & -> & Hr & Hd'). cbn in He.
      rewrite shape_step by lia. set (sz := Z.to_N s).
      assert (Z.of_N sz = s) as Hsz by (unfold sz; lia).
      destruct (N.ltb_spec sz (lenN p)) as [Hlt|Hge]; [|destruct p as [|b p']].
      * (* payload only *)
        destruct (IH draws' (dropN sz p) Hes Hd') as (ws & -> & Ha & Hn).
        assert (lenN (takeN sz p) = sz) as Hl by (apply lenN_takeN; lia).
        exists (takeN sz p :: ws). split; [reflexivity|].
        split; [|constructor; [apply lenN_pos_iff; lia|exact Hn]].
        destruct p as [|b p']; [cbn in Hlt; lia|]. cbn [accepts]. rewrite Hl.
        rewrite (proj2 (Z.ltb_lt _ _)), in_range_true, bytes_eqb_refl by lia. exact Ha.
      * (* padding only *)
        destruct (IH draws' [] Hes Hd') as (ws & -> & Ha & Hn).
        exists (waste sz :: ws). split; [reflexivity|]. split; [|constructor; [discriminate|exact Hn]].
        cbn [accepts]. rewrite lenN_waste.
        replace (Z.of_N (7 + sz) - 7)%Z with (Z.of_N sz) by lia.
        rewrite N2Z.id, in_range_true, (proj2 (Z.leb_le _ _)), bytes_eqb_refl by lia. exact Ha.
      * set (p := b :: p') in *. destruct (IH draws' [] Hes Hd') as (ws & -> & Ha & Hn).
        destruct (N.ltb_spec (lenN p + 7) sz) as [Hpl|Hpl].
        -- (* payload completed with padding *)
           set (pl := sz - (lenN p + 7)).
           exists ((p ++ waste pl) :: ws). split; [reflexivity|].
           split; [|constructor; [unfold p; discriminate|exact Hn]].
           unfold p at 1. cbn [accepts]. fold p.
           assert (lenN (p ++ waste pl) = sz) as -> by (rewrite lenN_app, lenN_waste; unfold pl; lia).
           replace (Z.to_N (Z.of_N sz - Z.of_N (lenN p) - 7)) with pl by (unfold pl; lia).
           rewrite (proj2 (Z.ltb_ge _ _)), (proj2 (Z.eqb_neq _ _)), in_range_true, (proj2 (Z.ltb_lt _ _)),
             (proj2 (Z.leb_le _ _)), bytes_eqb_refl by lia.
           exact Ha.
        -- (* bare rest of the payload *)
           exists (p :: ws). split; [reflexivity|]. split; [|constructor; [unfold p; discriminate|exact Hn]].
           unfold p at 1. cbn [accepts]. fold p.
           rewrite Z.ltb_irrefl, Z.eqb_refl, (proj2 (Z.leb_le _ _)), bytes_eqb_refl by lia. exact Ha.
Qed.

Lemma model_accepted es draws p ws :
  Forall entry_wf es -> draws_ok es draws ->
  shape_loop (sizes es draws) p = Writes ws -> accepts es p ws = true.
Proof.
  intros Hwf Hd Hs. destruct (shape_accepted es draws p Hwf Hd) as (ws' & E & Ha & _).
  rewrite E in Hs. injection Hs as <-. exact Ha.
Qed.

Lemma accept_sound es : forall p ws,
  accepts es p ws = true ->
  exists ns, concat ws = p ++ concat (map waste ns) /\ Forall pad_ok ns.
Proof.
  induction es as [|e es IH]; intros p ws H; [|destruct e as [|lo hi]]; cbn [accepts] in H.
  - destruct p as [|b p'].
    + destruct ws; [|discriminate]. exists []. split; [reflexivity | constructor].
    + destruct ws as [|w [|w2 ws2]]; try discriminate. apply bytes_eqb_eq in H. subst.
      exists []. cbn. rewrite !app_nil_r. split; [reflexivity | constructor].
  - destruct p as [|b p']; [|apply IH; exact H].
    destruct ws; [|discriminate]. exists []. split; [reflexivity | constructor].
  - destruct ws as [|w ws']; [discriminate|].
    destruct p as [|b p'].
    2: set (p := b :: p') in *; destruct (Z.ltb_spec (Z.of_N (lenN w)) (Z.of_N (lenN p))) as [Hlt | Hge].
    3: destruct (Z.eqb_spec (Z.of_N (lenN w)) (Z.of_N (lenN p))) as [Heq | Hne].
    (* in each of the four shapes the last two tests say that the write is as described and the rest is accepted *)
    all: apply andb_prop in H as [H Ha]; apply andb_prop in H as [H Hb]; apply bytes_eqb_eq in Hb.
    all: destruct (IH _ _ Ha) as (ns & Hc & Hn); cbn [concat]; rewrite Hc.
    + (* padding only *)
      apply andb_prop in H as [_ Hl]. apply Z.leb_le in Hl.
      exists (Z.to_N (Z.of_N (lenN w) - 7) :: ns). cbn [concat map app].
      split; [f_equal; exact Hb|]. constructor; [unfold pad_ok; lia | exact Hn].
    + (* payload only *)
      exists ns. split; [|exact Hn]. rewrite app_assoc.
      rewrite <- (takeN_dropN (lenN w) p) at 2. f_equal. f_equal. exact Hb.
    + (* the bare rest of the payload *)
      exists ns. split; [|exact Hn]. cbn [app]. f_equal. exact Hb.
    + (* payload completed with padding *)
      apply andb_prop in H as [_ Hl]. apply Z.leb_le in Hl.
      exists (Z.to_N (Z.of_N (lenN w) - Z.of_N (lenN p) - 7) :: ns).
      cbn [concat map app]. rewrite app_assoc.
      split; [f_equal; exact Hb|]. constructor; [unfold pad_ok; lia | exact Hn].
Qed.

Definition waste_r (n : N) : rframe := {| rcmd := 0; rsid := 0; rdata := zeros n |}.
Definition waste_f (n : N) : frame := {| fcmd := Waste; fsid := 0; fdata := zeros n |}.

Lemma waste_encode n : waste n = encode_raw (waste_r n).
Proof. unfold waste, encode_raw, waste_r. cbn [rcmd rsid rdata]. rewrite lenN_zeros. reflexivity. Qed.

Lemma waste_r_wf n : pad_ok n -> wf_rframe (waste_r n).
Proof.
  intros H. unfold wf_rframe, waste_r. cbn [rcmd rsid rdata]. rewrite lenN_zeros, max_payload_val.
  unfold pad_ok in H. split; [lia | split; [lia | split; [apply wfb_zeros | exact H]]].
Qed.

Lemma cook_waste_r n : cook (waste_r n) = waste_f n.
Proof. reflexivity. Qed.

Lemma concat_map_waste ns : concat (map waste ns) = concat (map encode_raw (map waste_r ns)).
Proof. rewrite map_map. f_equal. apply map_ext. intros n. apply waste_encode. Qed.

Lemma padded_wire_decodes_raw fs ns :
  Forall wf_rframe fs -> Forall pad_ok ns ->
  decode_all_raw (concat (map encode_raw fs) ++ concat (map waste ns)) = (fs ++ map waste_r ns, []).
Proof.
  intros Hf Hn. rewrite concat_map_waste, <- concat_app, <- map_app.
  rewrite <- (app_nil_r (concat _)). apply decode_all_raw_concat; [|reflexivity].
  apply Forall_app. split; [exact Hf|]. apply Forall_map. exact (Forall_impl _ waste_r_wf Hn).
Qed.

(* cooked frames: what the session was asked to send, as `frame`s *)
Definition payload_of (fs : list frame) : bytes := concat (map encode_raw (map raw_of fs)).

Lemma padded_wire_decodes fs ns :
  Forall wf_frame fs -> Forall (fun f => lenN (fdata f) <= 65535) fs -> Forall pad_ok ns ->
  decode_all (payload_of fs ++ concat (map waste ns)) = (fs ++ map waste_f ns, []).
Proof.
  intros Hw Hl Hn. unfold decode_all, payload_of. rewrite padded_wire_decodes_raw.
  - rewrite map_app, !map_map. f_equal. f_equal.
    rewrite <- (map_id fs) at 2. apply map_ext. intros f. apply cook_raw_of.
  - apply raw_of_wf_all; assumption.
  - exact Hn.
Qed.

Lemma payload_of_encode fs :
  Forall (fun f => lenN (fdata f) <= 65535) fs ->
  Forall2 (fun f e => encode f = Some e) fs (map encode_raw (map raw_of fs)).
Proof.
  induction 1 as [|f fs Hf _ IH]; cbn [map]; constructor; [apply encode_some; exact Hf | exact IH].
Qed.

Lemma write_packet_eq sc c d p :
  write_packet true sc c d p =
  (if sc_stop sc <=? pkt_index c then Writes (wr p) else shape_loop (sizes (line_entries sc (pkt_index c)) d) p,
   u32_of (c + 1)).
Proof.
  unfold write_packet, write_packet_gen. cbn [negb].
  destruct (sc_stop sc <=? pkt_index c); [reflexivity|].
  destruct (sizes (line_entries sc (pkt_index c)) d); reflexivity.
Qed.

Lemma write_packet_server sc c d p : write_packet false sc c d p = (Writes (wr p), c).
Proof. reflexivity. Qed.

Lemma write_packet_accepted sc c d p ws :
  draws_ok (line_entries sc (pkt_index c)) d ->
  fst (write_packet true sc c d p) = Writes ws ->
  (pkt_index c < sc_stop sc -> accepts (line_entries sc (pkt_index c)) p ws = true) /\
  (sc_stop sc <= pkt_index c -> ws = wr p).
Proof.
  intros Hd Hw. rewrite write_packet_eq in Hw. cbn [fst] in Hw.
  destruct (N.leb_spec (sc_stop sc) (pkt_index c)); split; intros Hk; try lia.
  - injection Hw as <-. reflexivity.
  - eapply model_accepted; [apply line_entries_wf | exact Hd | exact Hw].
Qed.

Lemma write_packet_wire pads sc c d p :
  draws_ok (line_entries sc (pkt_index c)) d ->
  exists ws ns, fst (write_packet pads sc c d p) = Writes ws /\
    concat ws = p ++ concat (map waste ns) /\ Forall pad_ok ns /\
    Forall (fun w : bytes => w <> []) ws.
Proof.
  intros Hd.
  assert (exists ws ns, Writes (wr p) = Writes ws /\ concat ws = p ++ concat (map waste ns) /\
            Forall pad_ok ns /\ Forall (fun w : bytes => w <> []) ws) as Hplain.
  { exists (wr p), []. cbn [map concat]. rewrite concat_wr, app_nil_r.
    repeat split; [constructor | apply wr_nonempty]. }
  destruct pads; [|exact Hplain]. rewrite write_packet_eq. cbn [fst].
  destruct (sc_stop sc <=? pkt_index c); [exact Hplain|].
  destruct (shape_accepted _ d p (line_entries_wf sc (pkt_index c)) Hd) as (ws & E & Ha & Hn).
  destruct (accept_sound _ _ _ Ha) as (ns & Hc & Hp). exists ws, ns. auto.
Qed.

Lemma no_crash sc pads counter draws buf :
  draws_ok (line_entries sc (pkt_index counter)) draws ->
  fst (write_packet pads sc counter draws buf) <> Crash.
Proof.
  intros Hd. destruct (write_packet_wire pads sc counter draws buf Hd) as (ws & ns & E & _).
  rewrite E. discriminate.
Qed.

Lemma packet_decodes sc counter draws fs ws :
  Forall wf_frame fs -> Forall (fun f => lenN (fdata f) <= 65535) fs ->
  draws_ok (line_entries sc (pkt_index counter)) draws ->
  fst (write_packet true sc counter draws (payload_of fs)) = Writes ws ->
  exists ns, Forall (fun n => n <= 65535) ns /\
    concat ws = payload_of fs ++ concat (map waste ns) /\
    decode_all (concat ws) = (fs ++ map waste_f ns, []) /\
    firstn (length fs) (fst (decode_all (concat ws))) = fs /\
    skipn (length fs) (fst (decode_all (concat ws))) = map waste_f ns.
Proof.
  intros Hw Hl Hd E.
  destruct (write_packet_wire true sc counter draws (payload_of fs) Hd) as (ws' & ns & E' & Hc & Hn & _).
  rewrite E in E'. injection E' as <-. exists ns. split; [exact Hn|]. split; [exact Hc|].
  assert (decode_all (concat ws) = (fs ++ map waste_f ns, [])) as Hdec
    by (rewrite Hc; apply padded_wire_decodes; assumption).
  rewrite Hdec. cbn [fst]. split; [reflexivity|]. split.
  - rewrite firstn_app, Nat.sub_diag, firstn_all. cbn. apply app_nil_r.
  - rewrite skipn_app, Nat.sub_diag, skipn_all. reflexivity.
Qed.

Lemma waste_decodes n rest :
  n <= 65535 -> decode1 (waste n ++ rest) = Some (waste_f n, rest) /\ lenN (waste n) = 7 + n.
Proof.
  intros H. split; [|apply lenN_waste]. unfold decode1. rewrite waste_encode.
  rewrite decode1_raw_encode_raw by (apply waste_r_wf; exact H). reflexivity.
Qed.

Lemma pkt_index_val c : c + 1 < 4294967296 -> pkt_index c = c + 1.
Proof. intros H. unfold pkt_index. rewrite pkt_index_offset_1. apply u32_of_small. exact H. Qed.

Lemma run_packets_nth sc pkts : forall c i d p,
  nth_error pkts i = Some (d, p) -> c + N.of_nat i + 1 < 4294967296 ->
  nth_error (run_packets true sc c pkts) i = Some (fst (write_packet true sc (c + N.of_nat i) d p)).
Proof.
  induction pkts as [|[d0 p0] pkts IH]; intros c i d p Hn Hb; [destruct i; discriminate|].
  cbn [run_packets]. destruct i as [|i].
  - injection Hn as -> ->. rewrite N.add_0_r. destruct (write_packet true sc c d p); reflexivity.
  - rewrite write_packet_eq, u32_of_small by lia. cbn [nth_error] in *.
    rewrite (IH (c + 1) i d p Hn) by lia. do 3 f_equal. lia.
Qed.

Lemma session_numbering sc pkts i d p :
  nth_error pkts i = Some (d, p) -> N.of_nat i + 1 < 4294967296 ->
  draws_ok (line_entries sc (N.of_nat i + 1)) d ->
  exists ws, nth_error (run_packets true sc client_pkt_start pkts) i = Some (Writes ws) /\
    (N.of_nat i + 1 < sc_stop sc -> accepts (line_entries sc (N.of_nat i + 1)) p ws = true) /\
    (sc_stop sc <= N.of_nat i + 1 -> ws = wr p).
Proof.
  intros Hn Hb Hd. change client_pkt_start with 0.
  rewrite (run_packets_nth sc pkts 0 i d p Hn) by lia. rewrite N.add_0_l.
  rewrite <- (pkt_index_val (N.of_nat i)) in * by lia.
  destruct (write_packet_wire true sc (N.of_nat i) d p Hd) as (ws & ns & E & _).
  exists ws. split; [rewrite E; reflexivity|]. exact (write_packet_accepted sc (N.of_nat i) d p ws Hd E).
Qed.

Lemma stop_is_final sc pkts i d p :
  nth_error pkts i = Some (d, p) -> N.of_nat i + 1 < 4294967296 -> sc_stop sc <= N.of_nat i + 1 ->
  nth_error (run_packets true sc client_pkt_start pkts) i = Some (Writes (wr p)).
Proof.
  intros Hn Hb Hs. change client_pkt_start with 0.
  rewrite (run_packets_nth sc pkts 0 i d p Hn) by lia. rewrite N.add_0_l, write_packet_eq, pkt_index_val by lia.
  destruct (N.leb_spec (sc_stop sc) (N.of_nat i + 1)); [reflexivity|lia].
Qed.

Lemma run_packets_server sc pkts : forall c,
  run_packets false sc c pkts = map (fun dp => Writes (wr (snd dp))) pkts.
Proof.
  induction pkts as [|[d p] pkts IH]; intros c; cbn [run_packets map]; [reflexivity|].
  rewrite write_packet_server, IH. reflexivity.
Qed.

Lemma auth_writes_concat hash szs :
  let first := match szs with [] => 0%Z | s :: _ => s end in
  let plen := if (first <? 0)%Z then 0 else u16_of (Z.to_N first) in
  concat (auth_writes hash szs) = hash ++ be16 plen ++ zeros plen.
Proof.
  intros first plen. unfold auth_writes. fold first. fold plen. rewrite !concat_app, !concat_wr.
  destruct (N.ltb_spec 0 plen) as [|Hz]; [rewrite concat_wr; reflexivity|].
  replace plen with 0 by lia. reflexivity.
Qed.

Lemma auth_preamble_shape hash es draws :
  Forall entry_wf es -> draws_ok es draws ->
  exists L, concat (auth_writes hash (sizes es draws)) = hash ++ be16 L ++ zeros L /\ L <= 65535 /\
    match es with
    | ERange lo hi :: _ => (lo <= Z.of_N L <= hi)%Z
    | _ => L = 0
    end.
Proof.
  intros Hwf Hd. eexists. split; [apply auth_writes_concat|].
  destruct es as [|[|lo hi] es].
  - split; [cbn; lia|reflexivity].
  - cbn [sizes]. rewrite check_mark_neg1. split; [cbn; lia|reflexivity].
  - inversion Hwf as [|? ? He _]; subst.
    destruct (sizes_range lo hi es draws He Hd) as (s & d' & -> & Hr & _). cbn in He.
    destruct (Z.ltb_spec s 0); [lia|]. unfold u16_of. rewrite N.mod_small by lia. lia.
Qed.

Lemma preamble raw sc hash draws :
  factory_new raw = Some sc -> draws_ok (line_entries sc 0) draws ->
  exists L, concat (auth_writes hash (sizes (line_entries sc 0) draws)) = hash ++ be16 L ++ zeros L /\
    L <= 65535 /\
    match line_entries sc 0 with
    | ERange lo hi :: _ => (lo <= Z.of_N L <= hi)%Z
    | _ => L = 0
    end.
Proof. intros _ Hd. apply auth_preamble_shape; [apply line_entries_wf | exact Hd]. Qed.

Fixpoint pkts_ok (pads : bool) (sc : scheme) (c : N) (pkts : list (list Z * bytes)) : Prop :=
  match pkts with
  | [] => True
  | (d, p) :: rest =>
      draws_ok (line_entries sc (pkt_index c)) d /\
      pkts_ok pads sc (snd (write_packet pads sc c d p)) rest
  end.

Definition frames_ok (fs : list frame) : Prop :=
  Forall wf_frame fs /\ Forall (fun f => lenN (fdata f) <= 65535) fs.

Definition to_pkts (pk : list (list Z * list frame)) : list (list Z * bytes) :=
  map (fun dfs => (fst dfs, payload_of (snd dfs))) pk.

Definition expected_frames (pk : list (list Z * list frame)) (nss : list (list N)) : list frame :=
  concat (map (fun x => snd (fst x) ++ map waste_f (snd x)) (combine pk nss)).

Lemma decode_all_clean_app a b fa fb :
  decode_all a = (fa, []) -> decode_all b = (fb, []) -> decode_all (a ++ b) = (fa ++ fb, []).
Proof. intros Ha Hb. rewrite decode_all_app, Ha. cbn [app]. rewrite Hb. reflexivity. Qed.

Lemma session_wire pads sc (pk : list (list Z * list frame)) : forall c,
  Forall (fun dfs => frames_ok (snd dfs)) pk ->
  pkts_ok pads sc c (to_pkts pk) ->
  exists bursts nss,
    run_packets pads sc c (to_pkts pk) = map Writes bursts /\
    length nss = length pk /\ Forall (Forall pad_ok) nss /\
    Forall2 (fun b x => concat b = payload_of (snd (fst x)) ++ concat (map waste (snd x))) bursts (combine pk nss) /\
    decode_all (concat (map (@concat N) bursts)) = (expected_frames pk nss, []).
Proof.
  induction pk as [|[d fs] pk IH]; intros c Hf Hok.
  - exists [], []. cbn. repeat split; constructor.
  - inversion Hf as [|? ? [Hw Hl] Hf']; subst. cbn [to_pkts map fst snd pkts_ok] in Hok.
    destruct Hok as [Hd Hrest].
    destruct (write_packet_wire pads sc c d (payload_of fs) Hd) as (ws & ns & E & Hc & Hn & _).
    cbn [to_pkts map fst snd run_packets].
    destruct (write_packet pads sc c d (payload_of fs)) as [r c'] eqn:Ew. cbn [fst snd] in *. subst r.
    destruct (IH c' Hf' Hrest) as (bursts & nss & Er & Hlen & Hnn & Hb & Hdec).
    exists (ws :: bursts), (ns :: nss).
    split; [cbn [map]; unfold to_pkts in Er; rewrite Er; reflexivity|].
    split; [cbn [length]; lia|].
    split; [constructor; assumption|].
    split; [cbn [combine]; constructor; [exact Hc | exact Hb]|].
    cbn [map concat]. unfold expected_frames. cbn [combine map concat fst snd].
    apply decode_all_clean_app; [|exact Hdec].
    rewrite Hc. apply padded_wire_decodes; assumption.
Qed.

(* SessRecv.v -- the receive loop: any fragmentation of the transport bytes dispatches the same frames
   in the same order as the unfragmented byte string; open readers and the table of stream objects. *)
From Coq Require Import List NArith ZArith Lia Bool.
From AnyTLS Require Import Bytes Cmd Generated Frame Reader Session FrameProofs
  ReaderProofs SessTable SessHandle.
Import ListNotations.
Import Sess.
Open Scope N_scope.

(* closed implies dead inside the receive loop: only the Alert arm closes, and it returns Err *)
Definition cd_inv (st : sess) : Prop := s_closed st = true -> dead st = true.

Lemma handle_cd c st f : cd_inv st -> cd_inv (fst (handle c st f)).
Proof.
  unfold cd_inv. intros H. destruct (alert_dec f) as [Ha|Hna].
  - rewrite (handle_alert c st f Ha). reflexivity.
  - destruct (handle_flags c st f Hna) as (Hc & _). rewrite Hc. intros Hcl. apply handle_dead_mono, H, Hcl.
Qed.

Lemma recv_all_dead c chunks : forall st carry, dead st = true -> recv_all c st carry chunks = (st, carry, []).
Proof.
  induction chunks as [|ch r IH]; intros st carry H; [reflexivity|].
  cbn [recv_all]. unfold recv. rewrite H, orb_true_r. rewrite (IH st carry H). reflexivity.
Qed.

Lemma recv_all_spec c chunks : forall st carry,
  cd_inv st -> decode1_raw carry = None ->
  let '(st', carry', o) := recv_all c st carry chunks in
  (st', o) = handle_all c st (fst (decode_all (carry ++ concat chunks))) /\
  (dead st' = false -> carry' = snd (decode_all (carry ++ concat chunks))).
Proof.
  (* along the streaming decoder, which recv_all follows chunk by chunk *)
  intros st carry Hcd Hcarry. rewrite <- (feed_all_spec chunks carry Hcarry). clear Hcarry. revert st carry Hcd.
  induction chunks as [|ch r IH]; intros st carry Hcd.
  - cbn. auto.
  - cbn [recv_all feed_all]. unfold recv.
    destruct (dead st) eqn:Ed.
    + rewrite orb_true_r, (recv_all_dead c r st carry Ed), handle_all_dead by exact Ed.
      split; [reflexivity | congruence].
    + destruct (s_closed st) eqn:Ecl; [rewrite (Hcd Ecl) in Ed; discriminate|]. cbn [orb].
      destruct (feed carry ch) as [fs1 carry1].
      pose proof (handle_all_inv cd_inv c (handle_cd c) fs1 st Hcd) as Hcd1.
      destruct (feed_all carry1 r) as [gs r'] eqn:Eg. cbn [fst snd].
      rewrite (handle_all_app c fs1 st).
      destruct (handle_all c st fs1) as [st1 o1]. cbn [fst] in Hcd1.
      specialize (IH st1 carry1 Hcd1). rewrite Eg in IH. cbn [fst snd] in IH.
      destruct (recv_all c st1 carry1 r) as [[st2 carry2] o2].
      destruct IH as [IH1 IH2]. rewrite <- IH1. split; [reflexivity | exact IH2].
Qed.

Lemma rd_pending_pushes r ds : rd_pending_bytes (rd_pushes r ds) = rd_pending_bytes r ++ concat ds.
Proof.
  unfold rd_pending_bytes. destruct (rd_pushes_fields r ds) as (Hq & _ & Hb & _).
  rewrite Hq, Hb, concat_app, app_assoc. reflexivity.
Qed.

Definition rd_open (r : Reader.rd) : Prop := rclosed r = false /\ reof r = false.

Lemma rd_open_wf r : rd_open r -> rd_wf r.
Proof. intros [_ H]. unfold rd_wf. congruence. Qed.

Lemma rd_open_pushes r ds : rd_open r -> rd_open (rd_pushes r ds).
Proof. intros [H1 H2]. destruct (rd_pushes_fields r ds) as (_ & Hc & _ & He). split; congruence. Qed.

Lemma rd_open_init : rd_open rd_init.
Proof. split; reflexivity. Qed.

Lemma rd_read_open r cap :
  rd_open r -> 0 < cap ->
  exists r' res, rd_read r cap = (r', res) /\ rd_open r' /\
    match res with
    | RData d => d <> [] /\ rd_pending_bytes r = d ++ rd_pending_bytes r'
    | RPending => rd_pending_bytes r = [] /\ rd_pending_bytes r' = []
    | REof => False
    end.
Proof.
  intros [Hc He] Hcap.
  destruct (rd_read_spec r cap (rd_open_wf r (conj Hc He))) as (r' & res & Hr & _ & Hc' & Hres).
  exists r', res. split; [exact Hr|]. unfold rd_open. destruct res as [d| |].
  - destruct Hres as (_ & He' & Hcat). pose proof (rd_read_data_nonempty r cap r' d Hcap Hr) as Hd.
    repeat split; auto; congruence.
  - destruct Hres as (Hx & _). congruence.
  - destruct Hres as (_ & H1 & H2 & He'). repeat split; auto; congruence.
Qed.

Lemma set_nth_for_only sid k s g b :
  length (only b (set_nth_for sid k s g)) = length (only b g) /\
  (b <> sid -> only b (set_nth_for sid k s g) = only b g).
Proof.
  revert k. induction g as [|[k' v] r IH]; intros k; [cbn; auto|].
  cbn [set_nth_for]. destruct (N.eqb_spec k' sid) as [->|Hn]; [destruct k as [|k1]|].
  - rewrite !only_cons. destruct (N.eqb_spec sid b); [split; [reflexivity | congruence] | auto].
  - destruct (IH k1) as [IH1 IH2]. rewrite !only_cons.
    destruct (N.eqb_spec sid b); [split; [cbn [length]; congruence | congruence] | auto].
  - destruct (IH k) as [IH1 IH2]. rewrite !only_cons.
    destruct (k' =? b); [split; [cbn [length]; congruence | intros Hb; rewrite (IH2 Hb); reflexivity] | auto].
Qed.

Lemma obj_live st sid s :
  lookup sid (tbl st) = Some s -> obj st sid (length (only sid (gone st))) = Some s.
Proof.
  intros H. unfold obj.
  assert (Hn : nth_error (only sid (gone st)) (length (only sid (gone st))) = None)
    by (apply nth_error_None; lia).
  rewrite Hn, Nat.eqb_refl. exact H.
Qed.

Lemma set_obj_live st sid s s' :
  lookup sid (tbl st) = Some s ->
  set_obj st sid (length (only sid (gone st))) s' = with_tbl st (insert sid s' (tbl st)) (gone st).
Proof.
  intros H. unfold set_obj. rewrite Nat.ltb_irrefl, H, Nat.eqb_refl. reflexivity.
Qed.

Lemma set_obj_other st sid k s b :
  wf_sess st -> (sid <> b \/ k <> length (only b (gone st))) ->
  let st' := set_obj st sid k s in
  lookup b (tbl st') = lookup b (tbl st) /\
  length (only b (gone st')) = length (only b (gone st)) /\
  s_closed st' = s_closed st /\ dead st' = dead st /\ wf_sess st'.
Proof.
  intros Hwf Hne. cbv zeta. unfold set_obj.
  destruct (Nat.ltb k (length (only sid (gone st)))) eqn:Elt.
  - cbn [with_tbl tbl gone s_closed dead]. destruct (set_nth_for_only sid k s (gone st) b) as [H1 _].
    repeat split; auto.
  - destruct (lookup sid (tbl st)) as [s0|] eqn:El; [|repeat split; auto].
    destruct (Nat.eqb k (length (only sid (gone st)))) eqn:Eeq; [|repeat split; auto].
    apply Nat.eqb_eq in Eeq. cbn [with_tbl tbl gone s_closed dead].
    assert (Hsb : sid <> b) by (destruct Hne as [H|H]; [exact H | intros ->; apply H; exact Eeq]).
    rewrite lookup_insert_neq by exact Hsb. repeat split; auto.
    unfold wf_sess. cbn [tbl]. apply nodup_insert. exact Hwf.
Qed.

(* HttpReadProofs.v -- C17: the header read loop for every chunking, and the event order of the connection handler. *)
From Coq Require Import List NArith ZArith Lia Bool.
From AnyTLS Require Import Bytes BytesFacts Generated HttpText Http HttpTextFacts.
Import ListNotations.
Open Scope N_scope.

Lemma fhe_bound b e : find_header_end b = Some e -> e <= lenN b.
Proof.
  unfold find_header_end. destruct (h_find http_terminator b) as [i|] eqn:F; [|discriminate].
  intros H. inversion H; subst. now apply h_find_bound.
Qed.

Lemma fhe_app a b e : find_header_end a = Some e -> find_header_end (a ++ b) = Some e.
Proof.
  unfold find_header_end. destruct (h_find http_terminator a) as [i|] eqn:F; [|discriminate].
  intros H. now rewrite (h_find_app _ _ b _ F).
Qed.

Lemma fhe_app_inv a b e : find_header_end (a ++ b) = Some e -> e <= lenN a -> find_header_end a = Some e.
Proof.
  unfold find_header_end. destruct (h_find http_terminator (a ++ b)) as [i|] eqn:F; [|discriminate].
  intros H L. inversion H; subst. now rewrite (h_find_app_inv _ _ _ _ F L).
Qed.

Lemma fhe_none_before a b e : find_header_end (a ++ b) = Some e -> lenN a < e -> find_header_end a = None.
Proof.
  intros H L. destruct (find_header_end a) as [e'|] eqn:E; [|reflexivity].
  pose proof (fhe_bound _ _ E). rewrite (fhe_app _ b _ E) in H. inversion H. lia.
Qed.

Lemma fhe_nil : find_header_end [] = None.
Proof. reflexivity. Qed.

Lemma fhe_first s e :
  find_header_end s = Some e ->
  exists pre post, s = pre ++ http_terminator ++ post /\ e = lenN pre + lenN http_terminator /\
                   takeN e s = pre ++ http_terminator /\ dropN e s = post /\
                   forall pre' post', s = pre' ++ http_terminator ++ post' -> lenN pre <= lenN pre'.
Proof.
  unfold find_header_end. destruct (h_find http_terminator s) as [i|] eqn:F; [|discriminate].
  intros H. inversion H; subst. clear H.
  pose proof (h_find_occ _ _ _ F) as Hs. pose proof (h_find_bound _ _ _ F) as Hb.
  assert (Li : lenN (takeN i s) = i) by (apply lenN_takeN; lia).
  revert Hs Li. generalize (takeN i s), (dropN (i + lenN http_terminator) s). intros pre post -> Li.
  exists pre, post. split; [reflexivity|]. split; [now rewrite Li|].
  rewrite <- Li, <- lenN_app, app_assoc, takeN_app_exact, <- app_assoc.
  split; [reflexivity|]. split; [reflexivity|].
  intros pre' post' E. destruct (h_find_first_occ http_terminator pre' post') as (j & Hj & Lj).
  rewrite <- E, F in Hj. inversion Hj; subst. lia.
Qed.

Definition nonempty_chunks (chunks : list bytes) : Prop := Forall (fun c => c <> []) chunks.

Lemma read_header_spec : forall chunks buf eof,
  nonempty_chunks chunks -> find_header_end buf = None -> lenN buf <= http_max_header ->
  match find_header_end (buf ++ concat chunks) with
  | Some e =>
      if e <=? http_max_header
      then exists k rest,
             read_header buf chunks eof = RhOk (takeN e (buf ++ concat chunks)) rest (skipn k chunks) /\
             buf ++ concat (firstn k chunks) = takeN e (buf ++ concat chunks) ++ rest
      else read_header buf chunks eof = RhTooLarge
  | None =>
      read_header buf chunks eof =
      if http_max_header <? lenN (buf ++ concat chunks) then RhTooLarge
      else if eof then RhClosed else RhPending (buf ++ concat chunks)
  end.
Proof.
  (* the two hypotheses on buf are the loop invariant.  After a read, buf' = buf ++ c: a terminator found in buf'
     is the first one of the whole input (fhe_app); with none, if buf' exceeds the limit then a terminator found
     later cannot end within it (fhe_app_inv), and otherwise the invariant holds of buf' *)
  induction chunks as [|c cs IH]; intros buf eof Hne Hf Hl.
  - cbn [concat]. rewrite app_nil_r, Hf. cbn [read_header].
    destruct (N.ltb_spec http_max_header (lenN buf)); [lia|reflexivity].
  - inversion Hne as [|? ? Hc Hcs]; subst.
    cbn [concat]. rewrite app_assoc. cbn [read_header].
    destruct c as [|c0 c']; [congruence|]. cbn [h_nil].
    set (buf' := buf ++ c0 :: c').
    destruct (find_header_end buf') as [e'|] eqn:F.
    + rewrite (fhe_app _ (concat cs) _ F). pose proof (fhe_bound _ _ F) as Hb.
      destruct (e' <=? http_max_header); [|reflexivity].
      exists 1%nat, (dropN e' buf'). cbn [skipn firstn concat]. rewrite app_nil_r.
      rewrite (takeN_app_le _ _ _ Hb). split; [reflexivity|].
      fold buf'. symmetry. apply takeN_dropN.
    + destruct (N.ltb_spec http_max_header (lenN buf')) as [Hgt|Hle].
      * destruct (find_header_end (buf' ++ concat cs)) as [e|] eqn:F2.
        -- destruct (N.leb_spec e http_max_header) as [Hle|]; [|reflexivity].
           exfalso. assert (find_header_end buf' = Some e) by (apply (fhe_app_inv _ _ _ F2); lia). congruence.
        -- rewrite lenN_app. destruct (N.ltb_spec http_max_header (lenN buf' + lenN (concat cs))); [reflexivity|lia].
      * specialize (IH buf' eof Hcs F Hle).
        destruct (find_header_end (buf' ++ concat cs)) as [e|] eqn:F2; [|exact IH].
        destruct (e <=? http_max_header); [|exact IH].
        destruct IH as (k & rest & Hr & Hcat).
        exists (S k), rest. cbn [skipn firstn concat]. split; [exact Hr|].
        rewrite app_assoc. exact Hcat.
Qed.

Lemma read_header_fits chunks eof e :
  nonempty_chunks chunks -> find_header_end (concat chunks) = Some e -> e <= http_max_header ->
  exists k rest,
    read_header [] chunks eof = RhOk (takeN e (concat chunks)) rest (skipn k chunks) /\
    concat (firstn k chunks) = takeN e (concat chunks) ++ rest /\
    rest ++ concat (skipn k chunks) = dropN e (concat chunks).
Proof.
  intros Hne Hf Hl.
  pose proof (read_header_spec chunks [] eof Hne fhe_nil (N.le_0_l _)) as H. cbn [app] in H.
  rewrite Hf in H. destruct (N.leb_spec e http_max_header); [|lia].
  destruct H as (k & rest & Hr & Hc). cbn [app] in Hc. exists k, rest. split; [exact Hr|]. split; [exact Hc|].
  assert (Hall : concat (firstn k chunks) ++ concat (skipn k chunks) = concat chunks)
    by (rewrite <- concat_app, firstn_skipn; reflexivity).
  rewrite Hc, <- app_assoc in Hall.
  pose proof (fhe_bound _ _ Hf) as Hb.
  set (T := takeN e (concat chunks)) in *.
  assert (LT : lenN T = e) by (apply lenN_takeN; exact Hb).
  rewrite <- Hall, <- LT. now rewrite dropN_app_exact.
Qed.

Lemma read_header_too_large chunks eof e :
  nonempty_chunks chunks -> find_header_end (concat chunks) = Some e -> http_max_header < e ->
  read_header [] chunks eof = RhTooLarge.
Proof.
  intros Hne Hf Hl.
  pose proof (read_header_spec chunks [] eof Hne fhe_nil (N.le_0_l _)) as H. cbn [app] in H.
  rewrite Hf in H. destruct (N.leb_spec e http_max_header); [lia|exact H].
Qed.

Lemma read_header_unterminated chunks eof :
  nonempty_chunks chunks -> find_header_end (concat chunks) = None ->
  read_header [] chunks eof =
  if http_max_header <? lenN (concat chunks) then RhTooLarge
  else if eof then RhClosed else RhPending (concat chunks).
Proof.
  intros Hne Hf.
  pose proof (read_header_spec chunks [] eof Hne fhe_nil (N.le_0_l _)) as H. cbn [app] in H.
  now rewrite Hf in H.
Qed.

Lemma read_header_ok_iff chunks eof :
  nonempty_chunks chunks ->
  ((exists h rest rem, read_header [] chunks eof = RhOk h rest rem) <->
   (exists e, find_header_end (concat chunks) = Some e /\ e <= http_max_header)).
Proof.
  intros Hne. split.
  - intros (h & rest & rem & H).
    destruct (find_header_end (concat chunks)) as [e|] eqn:F.
    + destruct (N.leb_spec e http_max_header) as [Hle|Hgt]; [now exists e|].
      rewrite (read_header_too_large _ _ _ Hne F Hgt) in H. discriminate.
    + rewrite (read_header_unterminated _ _ Hne F) in H.
      destruct (_ <? _); [discriminate|]. destruct eof; discriminate.
  - intros (e & F & Hle). destruct (read_header_fits _ eof _ Hne F Hle) as (k & rest & H & _).
    now exists (takeN e (concat chunks)), rest, (skipn k chunks).
Qed.

Lemma rechunk_fuel_S k n s :
  rechunk_fuel (S k) n s = if lenN s <=? n then [s] else takeN n s :: rechunk_fuel k n (dropN n s).
Proof. reflexivity. Qed.

Lemma concat_rechunk_fuel n : forall k s, concat (rechunk_fuel k n s) = s.
Proof.
  induction k as [|k IH]; intros s; [apply app_nil_r|]. rewrite rechunk_fuel_S.
  destruct (lenN s <=? n); [apply app_nil_r|]. rewrite concat_cons, IH. apply takeN_dropN.
Qed.

Lemma concat_rechunk n s : concat (rechunk n s) = s.
Proof.
  unfold rechunk. destruct s as [|x s]; [reflexivity|]. cbn [h_nil].
  destruct (n =? 0); [apply app_nil_r|apply concat_rechunk_fuel].
Qed.

Lemma rechunk_fuel_nonempty n : 0 < n -> forall k s, s <> [] -> nonempty_chunks (rechunk_fuel k n s).
Proof.
  intros Hn. induction k as [|k IH]; intros s Hs; [now repeat constructor|]. rewrite rechunk_fuel_S.
  destruct (N.leb_spec (lenN s) n) as [|L]; [now repeat constructor|]. constructor.
  - now apply takeN_nonempty.
  - apply IH. rewrite <- lenN_zero_nil, lenN_dropN. lia.
Qed.

Lemma rechunk_nonempty n s : nonempty_chunks (rechunk n s).
Proof.
  unfold rechunk. destruct (h_nil s) eqn:E; [constructor|]. apply h_nil_false_iff in E.
  destruct (N.eqb_spec n 0); [now repeat constructor|]. apply rechunk_fuel_nonempty; [lia|exact E].
Qed.

Lemma rechunk_fuel_irrel n : 0 < n -> forall k1 k2 s, (length s <= k1)%nat -> (length s <= k2)%nat ->
  rechunk_fuel k1 n s = rechunk_fuel k2 n s.
Proof.
  intros Hn. induction k1 as [|k1 IH]; intros k2 s L1 L2; (destruct s as [|x s]; [now destruct k2, n|]).
  - cbn in L1. lia.
  - destruct k2 as [|k2]; [cbn in L2; lia|]. rewrite !rechunk_fuel_S.
    destruct (N.leb_spec (lenN (x :: s)) n) as [|L]; [reflexivity|]. f_equal.
    pose proof (lenN_dropN n (x :: s)) as D. unfold lenN in *. apply IH; lia.
Qed.

Lemma rechunk_eq n s : 0 < n -> s <> [] ->
  rechunk n s = if lenN s <=? n then [s] else takeN n s :: rechunk n (dropN n s).
Proof.
  intros Hn Hs. unfold rechunk at 1. apply h_nil_false_iff in Hs. rewrite Hs.
  destruct (N.eqb_spec n 0); [lia|]. destruct s as [|x s]; [discriminate|]. cbn [length]. rewrite rechunk_fuel_S.
  destruct (N.leb_spec (lenN (x :: s)) n) as [|L]; [reflexivity|]. f_equal.
  assert (D : lenN (dropN n (x :: s)) = lenN (x :: s) - n) by apply lenN_dropN.
  unfold rechunk. destruct (dropN n (x :: s)) as [|y t] eqn:E; [rewrite lenN_nil in D; lia|]. cbn [h_nil].
  destruct (N.eqb_spec n 0); [lia|]. rewrite <- E in *. apply rechunk_fuel_irrel; [exact Hn| |lia].
  unfold lenN in *. cbn [length] in *. lia.
Qed.

Definition with_body (r : hparsed) (b : bytes) : hparsed :=
  {| hp_method := hp_method r; hp_version := hp_version r; hp_host := hp_host r; hp_port := hp_port r;
     hp_path := hp_path r; hp_connect := hp_connect r; hp_headers := hp_headers r; hp_body := b |}.

Lemma parse_body_indep h b :
  parse_http_request h b =
  match parse_http_request h [] with HOk r => HOk (with_body r b) | HErr => HErr end.
Proof.
  unfold parse_http_request. destruct (h_split_crlf h) as [|rl ls]; [reflexivity|].
  destruct (h_split_whitespace rl) as [|m [|t rest]]; try reflexivity.
  destruct (determine_target m t _) as [[[[ho po] pa] c]|]; reflexivity.
Qed.

Lemma parse_body h b r : parse_http_request h b = HOk r -> hp_body r = b.
Proof.
  rewrite parse_body_indep. destruct (parse_http_request h []); [|discriminate].
  intros [= <-]. reflexivity.
Qed.

Lemma sent_bytes_app a b : sent_bytes (a ++ b) = sent_bytes a ++ sent_bytes b.
Proof.
  induction a as [|x a IH]; [reflexivity|]. destruct x; cbn [app sent_bytes]; rewrite IH; [reflexivity..|].
  now rewrite app_assoc.
Qed.

Lemma sent_fwd_loop cs : nonempty_chunks cs -> sent_bytes (fwd_loop cs) = concat cs.
Proof.
  induction cs as [|c cs IH]; intros H; [reflexivity|].
  inversion H; subst. destruct c; [congruence|]. cbn [fwd_loop h_nil sent_bytes concat]. now rewrite IH.
Qed.

Lemma sent_opt_send b : sent_bytes (opt_send b) = b.
Proof. destruct b; [reflexivity|]. cbn. now rewrite app_nil_r. Qed.

Lemma nonempty_skipn k cs : nonempty_chunks cs -> nonempty_chunks (skipn k cs).
Proof.
  unfold nonempty_chunks. rewrite !Forall_forall. intros H x Hx. apply H.
  rewrite <- (firstn_skipn k cs). apply in_or_app. now right.
Qed.

Lemma handle_body chunks eof e :
  nonempty_chunks chunks -> find_header_end (concat chunks) = Some e -> e <= http_max_header ->
  match parse_http_request (takeN e (concat chunks)) [] with
  | HOk r =>
      sent_bytes (handle chunks eof true) =
        (if hp_connect r then [] else build_forward_request r) ++ dropN e (concat chunks) /\
      sent_bytes (handle chunks eof false) = []
  | HErr => forall ok, handle chunks eof ok = []
  end.
Proof.
  intros Hne Hf Hl. destruct (read_header_fits _ eof _ Hne Hf Hl) as (k & rest & Hr & _ & Hd).
  destruct (parse_http_request (takeN e (concat chunks)) []) as [r|] eqn:P.
  - unfold handle. rewrite Hr, parse_body_indep, P.
    cbn [hp_host hp_port hp_connect hp_body with_body]. split; [|reflexivity].
    cbn [sent_bytes]. rewrite !sent_bytes_app, sent_opt_send, sent_fwd_loop by (now apply nonempty_skipn).
    rewrite Hd. destruct (hp_connect r); cbn [sent_bytes app]; [reflexivity|].
    now rewrite app_nil_r.
  - intros ok. unfold handle. now rewrite Hr, parse_body_indep, P.
Qed.

Lemma no_reply_in_fwd c cs : ~ In (EvReply c) (fwd_loop cs).
Proof.
  induction cs as [|x cs IH]; cbn; [tauto|]. destruct (h_nil x); cbn; [tauto|].
  intros [H|H]; [discriminate|tauto].
Qed.

Lemma no_reply_in_opt c b : ~ In (EvReply c) (opt_send b).
Proof. unfold opt_send. destruct (h_nil b); cbn; [tauto|]. intros [H|H]; [discriminate|tauto]. Qed.

Lemma handle_shape chunks eof ok :
  handle chunks eof ok = [] \/
  exists h p tl, handle chunks eof ok = EvOpen h p :: tl /\
    ((ok = false /\ tl = [EvReply http_reply_open_failed]) \/
     (ok = true /\ exists tl', (tl = EvReply http_reply_connect_ok :: tl' \/ exists b, tl = EvSend b :: tl') /\
                               forall c, ~ In (EvReply c) tl')).
Proof.
  unfold handle. destruct (read_header [] chunks eof) as [h rest rem| | |]; try (left; reflexivity).
  destruct (parse_http_request h rest) as [r|]; [|left; reflexivity].
  right. exists (hp_host r), (hp_port r). eexists. split; [reflexivity|].
  destruct ok; [right|left; split; reflexivity]. split; [reflexivity|].
  exists (opt_send (hp_body r) ++ fwd_loop rem). split.
  - destruct (hp_connect r); [left; reflexivity|right; eexists; reflexivity].
  - intros c H. apply in_app_or in H. destruct H; [eapply no_reply_in_opt|eapply no_reply_in_fwd]; eassumption.
Qed.

Lemma reply_200_needs_open chunks eof ok :
  In (EvReply http_reply_connect_ok) (handle chunks eof ok) -> ok = true.
Proof.
  destruct (handle_shape chunks eof ok) as [E|(h & p & tl & E & [[-> ->]|[-> _]])]; rewrite E; [cbn; tauto| |reflexivity].
  cbn. intros [H|[H|H]]; try discriminate; tauto.
Qed.

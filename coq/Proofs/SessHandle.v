(* SessHandle.v -- frame dispatch (Sess.handle): a frame acts on the view of its own stream id only, and what
   else it can change. *)
From Coq Require Import List NArith ZArith Bool.
From AnyTLS Require Import Bytes Cmd Generated Frame Reader Session SessTable.
Import ListNotations.
Import Sess.
Open Scope N_scope.

Definition cfg_ok (c : cfg) : Prop := lenN (c_scheme c) <= max_payload.
Definition no_alert (f : frame) : Prop := fcmd f <> Alert.

(* what one frame does to the view of its own id *)
Definition vstep (c : cfg) (f : frame) (v : option stream * list stream) : option stream * list stream :=
  let '(cur, old) := v in
  match fcmd f with
  | Push => (match cur with Some s => Some (push_data s (fdata f)) | None => None end, old)
  | Syn => if is_client c then v else (Some fresh, detached cur old)
  | SynAck =>
      if is_client c
      then (match cur with
            | Some s => Some (resolve s (if is_nil (fdata f) then SOk else SErr (fdata f)))
            | None => None
            end, old)
      else v
  | Fin => (None, detached cur old)
  | _ => v
  end.

Definition vrun (c : cfg) (b : N) (fs : list frame) (v : option stream * list stream) :=
  fold_left (fun v f => if fsid f =? b then vstep c f v else v) fs v.

Definition wf_sess (st : sess) : Prop := NoDup (keys (tbl st)).

Lemma wf_init c : wf_sess (init_sess c).
Proof. constructor. Qed.

Lemma with_tbl_fields st t g :
  next_id (with_tbl st t g) = next_id st /\ peer_version (with_tbl st t g) = peer_version st /\
  s_closed (with_tbl st t g) = s_closed st /\ dead (with_tbl st t g) = dead st /\
  sendq (with_tbl st t g) = sendq st /\ tbl (with_tbl st t g) = t /\ gone (with_tbl st t g) = g.
Proof. repeat split. Qed.

Lemma install_fields sid st :
  next_id (install sid st) = next_id st /\ peer_version (install sid st) = peer_version st /\
  s_closed (install sid st) = s_closed st /\ dead (install sid st) = dead st /\ sendq (install sid st) = sendq st.
Proof. unfold install. destruct (detach sid (tbl st) (gone st)). repeat split. Qed.

(* one frame other than Alert: what it does to the two tables ... *)
Definition tstep (c : cfg) (f : frame) (t g : list (N * stream)) : list (N * stream) * list (N * stream) :=
  match fcmd f with
  | Push => (upd (fsid f) (fun s => push_data s (fdata f)) t, g)
  | Syn => if is_client c then (t, g)
           else let '(t', g') := detach (fsid f) t g in (insert (fsid f) fresh t', g')
  | SynAck =>
      if is_client c
      then (upd (fsid f) (fun s => resolve s (if is_nil (fdata f) then SOk else SErr (fdata f))) t, g)
      else (t, g)
  | Fin => detach (fsid f) t g
  | _ => (t, g)
  end.

Lemma tstep_view c f t g b :
  let '(t', g') := tstep c f t g in
  (lookup b t', only b g') =
    if fsid f =? b then vstep c f (lookup b t, only b g) else (lookup b t, only b g).
Proof.
  unfold tstep, vstep. destruct (fcmd f); try (destruct (fsid f =? b); reflexivity).
  - destruct (is_client c); [destruct (fsid f =? b); reflexivity|].
    pose proof (detach_view (fsid f) b t g) as H. destruct (detach (fsid f) t g) as [t' g'].
    destruct (N.eqb_spec (fsid f) b) as [<-|Hn]; injection H as H1 H2;
      rewrite ?lookup_insert_eq, ?lookup_insert_neq by exact Hn; congruence.
  - rewrite lookup_upd. destruct (fsid f =? b); reflexivity.
  - exact (detach_view (fsid f) b t g).
  - destruct (is_client c); [rewrite lookup_upd|]; destruct (fsid f =? b); reflexivity.
Qed.

Lemma tstep_nodup c f t g : NoDup (keys t) -> NoDup (keys (fst (tstep c f t g))).
Proof.
  intros H. unfold tstep. destruct (fcmd f); try exact H.
  - destruct (is_client c); [exact H|]. pose proof (detach_nodup (fsid f) t g H) as Hd.
    destruct (detach (fsid f) t g). apply nodup_insert, Hd.
  - apply nodup_upd, H.
  - apply detach_nodup, H.
  - destruct (is_client c); [apply nodup_upd|]; exact H.
Qed.

(* ... and to everything else: the only frames it can make the session write are replies *)
Definition reply (x : out) : bool :=
  match x with
  | Send g => match fcmd g with UpdatePaddingScheme | ServerSettings | HeartResponse => true | _ => false end
  | _ => true
  end.

(* tg stands for the tables after the frame: a parameter, so that in handle_shape the tests of tstep stand in the goal
   beside those of the dispatch and are split with them, while `shape` stays folded and the result occurs once *)
Local Definition shape (c : cfg) (st : sess) (f : frame) (tg : list (N * stream) * list (N * stream))
                 (r : sess * list out) : Prop :=
  (tbl (fst r), gone (fst r)) = tg /\
  next_id (fst r) = next_id st /\ s_closed (fst r) = s_closed st /\ sendq (fst r) = sendq st /\
  (dead (fst r) = dead st \/ dead (fst r) = true /\ fcmd f = Settings /\ max_payload < lenN (c_scheme c)) /\
  (peer_version (fst r) = peer_version st \/
   fcmd f = Settings /\ is_client c = false /\ 2 <= peer_version (fst r) \/
   fcmd f = ServerSettings /\ is_client c = true) /\
  forallb reply (snd r) = true.

(* at a leaf of the dispatch the result is a concrete state and a concrete list of replies: every clause of
   `shape` holds by computation or is the test that leads to the leaf *)
Local Ltac leaf := unfold shape; cbn [fst snd app tbl gone next_id peer_version s_closed dead sendq]; auto 12.

Lemma handle_shape c st f : no_alert f -> shape c st f (tstep c f (tbl st) (gone st)) (handle c st f).
Proof.
  intros Hna. destruct st as [t g n v cl d q].
  unfold no_alert, handle, tstep, upd, install, with_tbl, with_pv, with_dead in *.
  cbn [tbl gone next_id peer_version s_closed dead sendq].
  (* the arms in the order of the constructors of cmd, Alert left out *)
  destruct (fcmd f) eqn:Ec; try (elim Hna; reflexivity).
  - leaf.
  - destruct (is_client c); [leaf|]. destruct (detach (fsid f) t g). leaf.
  - destruct (lookup (fsid f) t); leaf.
  - destruct (detach (fsid f) t g). leaf.
  - destruct (is_client c) eqn:Ecl; cbn [negb andb]; [leaf|].
    destruct (negb (is_nil (fdata f))); [|leaf].
    (* Settings: the reply to the version and the reply to the padding checksum are decided independently *)
    destruct (map_get key_v (fdata f)) as [vs|]; [destruct (parse_u8 vs) as [v'|]; [destruct (N.leb_spec 2 v')|]|].
    all: destruct (match map_get key_md5 (fdata f) with Some m => negb (bytes_eqb m (c_md5 c)) | None => false end);
      cbn [andb]; [destruct (N.ltb_spec max_payload (lenN (c_scheme c)))|].
    all: leaf.
  - leaf.
  - destruct (is_client c); [destruct (lookup (fsid f) t)|]; leaf.
  - leaf.
  - leaf.
  - destruct (is_client c) eqn:Ecl; cbn [andb]; [|leaf].
    destruct (negb (is_nil (fdata f))); [|leaf].
    destruct (map_get key_v (fdata f)) as [vs|]; [destruct (parse_u8 vs)|]; leaf.
Qed.

Lemma handle_tables c st f :
  no_alert f -> (tbl (fst (handle c st f)), gone (fst (handle c st f))) = tstep c f (tbl st) (gone st).
Proof. intros Hna. apply (handle_shape c st f Hna). Qed.
Lemma handle_dead c st f :
  no_alert f ->
  dead (fst (handle c st f)) = dead st \/
  dead (fst (handle c st f)) = true /\ fcmd f = Settings /\ max_payload < lenN (c_scheme c).
Proof. intros Hna. apply (handle_shape c st f Hna). Qed.
Lemma handle_peer_version c st f :
  no_alert f ->
  peer_version (fst (handle c st f)) = peer_version st \/
  fcmd f = Settings /\ is_client c = false /\ 2 <= peer_version (fst (handle c st f)) \/
  fcmd f = ServerSettings /\ is_client c = true.
Proof. intros Hna. apply (handle_shape c st f Hna). Qed.
Lemma handle_replies c st f : no_alert f -> forallb reply (snd (handle c st f)) = true.
Proof. intros Hna. apply (handle_shape c st f Hna). Qed.

Lemma alert_dec f : {fcmd f = Alert} + {no_alert f}.
Proof. unfold no_alert. destruct (fcmd f); (left; reflexivity) || (right; discriminate). Qed.

Lemma handle_alert c st f :
  fcmd f = Alert -> handle c st f = (with_dead (fst (close st)), snd (close st)).
Proof. intros H. unfold handle. rewrite H. destruct (close st). reflexivity. Qed.

Lemma handle_view c st f b :
  no_alert f ->
  view b (fst (handle c st f)) = if fsid f =? b then vstep c f (view b st) else view b st.
Proof.
  intros Hna. pose proof (tstep_view c f (tbl st) (gone st) b) as Hv.
  rewrite <- (handle_tables c st f Hna) in Hv. exact Hv.
Qed.

Lemma fin_view c st sid d b :
  view b (fst (handle c st (mk Fin sid d))) =
    if sid =? b then (None, detached (lookup b (tbl st)) (only b (gone st))) else view b st.
Proof. apply (handle_view c st (mk Fin sid d) b). discriminate. Qed.

Lemma fin_own c st sid d :
  let st' := fst (handle c st (mk Fin sid d)) in
  lookup sid (tbl st') = None /\ only sid (gone st') = detached (lookup sid (tbl st)) (only sid (gone st)).
Proof. pose proof (fin_view c st sid d sid) as Hv. rewrite N.eqb_refl in Hv. injection Hv as Hl Hg. auto. Qed.

Lemma handle_flags c st f :
  no_alert f ->
  s_closed (fst (handle c st f)) = s_closed st /\ next_id (fst (handle c st f)) = next_id st /\
  sendq (fst (handle c st f)) = sendq st /\
  (cfg_ok c -> dead (fst (handle c st f)) = dead st).
Proof.
  intros Hna. destruct (handle_shape c st f Hna) as (_ & Hn & Hc & Hq & Hd & _).
  refine (conj Hc (conj Hn (conj Hq _))). unfold cfg_ok. intros Hok.
  destruct Hd as [Hd|(_ & _ & Hd)]; [exact Hd | elim (proj1 (N.lt_nge _ _) Hd Hok)].
Qed.

Lemma handle_dead_mono c st f : dead st = true -> dead (fst (handle c st f)) = true.
Proof.
  intros H. destruct (alert_dec f) as [Ha|Hna]; [rewrite (handle_alert c st f Ha); reflexivity|].
  destruct (handle_dead c st f Hna) as [Hd|[Hd _]]; congruence.
Qed.

Lemma handle_wf c st f : wf_sess st -> wf_sess (fst (handle c st f)).
Proof.
  unfold wf_sess. intros H. destruct (alert_dec f) as [Ha|Hna].
  - rewrite (handle_alert c st f Ha). unfold close. destruct (s_closed st); [exact H | constructor].
  - pose proof (handle_tables c st f Hna) as Ht. apply (f_equal fst) in Ht. cbn [fst] in Ht.
    rewrite Ht. apply tstep_nodup, H.
Qed.

Lemma handle_all_app c fs : forall st gs,
  handle_all c st (fs ++ gs) =
  let '(st1, o1) := handle_all c st fs in
  let '(st2, o2) := handle_all c st1 gs in (st2, o1 ++ o2).
Proof.
  induction fs as [|f fs IH]; intros st gs.
  - cbn [app handle_all]. destruct (handle_all c st gs). reflexivity.
  - cbn [app handle_all]. destruct (dead st) eqn:Ed.
    + destruct gs; cbn [handle_all]; [reflexivity | rewrite Ed; reflexivity].
    + destruct (handle c st f) as [st1 o1]. rewrite IH.
      destruct (handle_all c st1 fs) as [st2 o2]. destruct (handle_all c st2 gs) as [st3 o3].
      rewrite app_assoc. reflexivity.
Qed.

Lemma handle_all_dead c st fs : dead st = true -> handle_all c st fs = (st, []).
Proof. intros H. destruct fs; cbn [handle_all]; [reflexivity | rewrite H; reflexivity]. Qed.

Lemma handle_all_inv (P : sess -> Prop) c :
  (forall st f, P st -> P (fst (handle c st f))) ->
  forall fs st, P st -> P (fst (handle_all c st fs)).
Proof.
  intros Hstep. induction fs as [|f fs IH]; intros st H; [exact H|]. cbn [handle_all].
  destruct (dead st); [exact H|].
  pose proof (Hstep st f H) as H1. destruct (handle c st f) as [st1 o1].
  specialize (IH st1 H1). destruct (handle_all c st1 fs). exact IH.
Qed.

Lemma handle_all_wf c fs st : wf_sess st -> wf_sess (fst (handle_all c st fs)).
Proof. apply handle_all_inv. intros st0 f. apply handle_wf. Qed.

Lemma handle_all_view c b fs : forall st,
  cfg_ok c -> Forall no_alert fs -> dead st = false ->
  view b (fst (handle_all c st fs)) = vrun c b fs (view b st) /\
  dead (fst (handle_all c st fs)) = false /\
  s_closed (fst (handle_all c st fs)) = s_closed st /\
  next_id (fst (handle_all c st fs)) = next_id st /\
  sendq (fst (handle_all c st fs)) = sendq st.
Proof.
  induction fs as [|f fs IH]; intros st Hok Hall Hd.
  - cbn. auto.
  - inversion Hall as [|? ? Hf Hfs]; subst. cbn [handle_all]. rewrite Hd.
    pose proof (handle_view c st f b Hf) as Hv.
    destruct (handle_flags c st f Hf) as (Hc & Hn & Hq & Hdd).
    destruct (handle c st f) as [st1 o1]. cbn [fst] in *.
    specialize (IH st1 Hok Hfs ltac:(rewrite (Hdd Hok); exact Hd)).
    destruct (handle_all c st1 fs) as [st2 o2]. cbn [fst] in *.
    destruct IH as (IHv & IHd & IHc & IHn & IHq).
    cbn [vrun fold_left]. fold (vrun c b fs). rewrite <- Hv.
    repeat split; try congruence. exact IHv.
Qed.

Lemma vrun_filter c a b fs : a <> b -> forall v,
  vrun c b (filter (fun f => negb (fsid f =? a)) fs) v = vrun c b fs v.
Proof.
  intros Hab. induction fs as [|f fs IH]; intros v; [reflexivity|].
  cbn [filter]. destruct (N.eqb_spec (fsid f) a) as [Ha|Ha]; cbn [negb].
  - cbn [vrun fold_left]. fold (vrun c b fs).
    destruct (N.eqb_spec (fsid f) b); [congruence|]. apply IH.
  - cbn [vrun fold_left]. fold (vrun c b fs). fold (vrun c b (filter (fun f => negb (fsid f =? a)) fs)).
    apply IH.
Qed.

Definition is_push_for (b : N) (f : frame) : bool := cmd_eqb (fcmd f) Push && (fsid f =? b).
Definition pushes (b : N) (fs : list frame) : list bytes := map fdata (filter (is_push_for b) fs).
(* a frame that ends the current incarnation of b: a FIN, or on a server a SYN (which puts a fresh one in its place) *)
Definition ends (c : cfg) (b : N) (f : frame) : bool :=
  (fsid f =? b) && (cmd_eqb (fcmd f) Fin || (cmd_eqb (fcmd f) Syn && negb (is_client c))).

Definition rd_pushes (r : Reader.rd) (ds : list bytes) : Reader.rd := fold_left rd_push ds r.

Lemma pushes_app b fs gs : pushes b (fs ++ gs) = pushes b fs ++ pushes b gs.
Proof. unfold pushes. rewrite filter_app, map_app. reflexivity. Qed.

Lemma rd_pushes_app r ds es : rd_pushes r (ds ++ es) = rd_pushes (rd_pushes r ds) es.
Proof. unfold rd_pushes. apply fold_left_app. Qed.

Lemma rd_pushes_fields r ds :
  rq (rd_pushes r ds) = rq r ++ ds /\ rclosed (rd_pushes r ds) = rclosed r /\
  rbuf (rd_pushes r ds) = rbuf r /\ reof (rd_pushes r ds) = reof r.
Proof.
  revert r. induction ds as [|d ds IH]; intros r; cbn [rd_pushes fold_left].
  - rewrite app_nil_r. auto.
  - fold (rd_pushes (rd_push r d) ds). destruct (IH (rd_push r d)) as (H1 & H2 & H3 & H4).
    rewrite H1, H2, H3, H4. cbn [rd_push rq rclosed rbuf reof]. rewrite <- app_assoc. auto.
Qed.

Lemma vstep_content c b f s old :
  ends c b f = false ->
  exists s', (if fsid f =? b then vstep c f (Some s, old) else (Some s, old)) = (Some s', old) /\
    rd s' = rd_pushes (rd s) (pushes b [f]) /\ sclosed s' = sclosed s.
Proof.
  unfold ends, pushes, is_push_for, vstep. cbn [filter].
  destruct (fsid f =? b); cbn [andb]; [|rewrite andb_false_r; eauto]. rewrite andb_true_r.
  destruct (fcmd f); cbn [cmd_eqb orb andb negb]; try discriminate; eauto.
  - destruct (is_client c); [eauto | discriminate].
  - destruct (is_client c); [|eauto]. eexists. split; [reflexivity|].
    unfold resolve. destruct (synack s); auto.
Qed.

Lemma vrun_content c b fs : forall s old,
  Forall (fun f => ends c b f = false) fs ->
  exists s', vrun c b fs (Some s, old) = (Some s', old) /\
    rd s' = rd_pushes (rd s) (pushes b fs) /\ sclosed s' = sclosed s.
Proof.
  induction fs as [|f fs IH]; intros s old Hall; [exists s; auto|].
  inversion Hall as [|? ? Hf Hfs]; subst.
  destruct (vstep_content c b f s old Hf) as (s1 & E1 & Hrd1 & Hsc1).
  destruct (IH s1 old Hfs) as (s' & E & Hrd & Hsc).
  exists s'. cbn [vrun fold_left]. rewrite E1.
  change (f :: fs) with ([f] ++ fs). rewrite pushes_app, rd_pushes_app, <- Hrd1.
  exact (conj E (conj Hrd (eq_trans Hsc Hsc1))).
Qed.

Lemma handle_all_content c st b s fs :
  cfg_ok c -> dead st = false -> lookup b (tbl st) = Some s ->
  Forall (fun f => no_alert f /\ ends c b f = false) fs ->
  let st' := fst (handle_all c st fs) in
  exists s', lookup b (tbl st') = Some s' /\ only b (gone st') = only b (gone st) /\
    rd s' = rd_pushes (rd s) (pushes b fs) /\ sclosed s' = sclosed s /\
    dead st' = false /\ s_closed st' = s_closed st.
Proof.
  intros Hok Hd Hl Hq. cbv zeta. destruct (Forall_and_inv _ _ Hq) as [Hna Hne].
  destruct (handle_all_view c b fs st Hok Hna Hd) as (Hv & Hd' & Hc' & _).
  destruct (vrun_content c b fs s (only b (gone st)) Hne) as (s1 & Hvr & Hrd & Hsc).
  unfold view in Hv at 2. rewrite Hl, Hvr in Hv. injection Hv as H1 H2. exists s1. auto 10.
Qed.

Lemma write_ctrl_ok st f :
  s_closed st = false -> lenN (fdata f) <= max_payload -> write_ctrl st f = ([Send f], WOk).
Proof. intros Hc Hl. unfold write_ctrl. rewrite Hc, (proj2 (N.ltb_ge _ _) Hl). reflexivity. Qed.

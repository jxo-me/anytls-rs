(* SessTable.v -- association-list facts for the stream table of Model/Session.v,
   and the per-stream *view* (live entry + detached objects of one id). *)
From Coq Require Import List NArith ZArith Bool.
From AnyTLS Require Import Bytes Cmd Generated Frame Reader Session.
Import ListNotations.
Import Sess.
Open Scope N_scope.

Section Assoc.
  Context {A : Type}.
  Implicit Types (l : list (N * A)).

  Lemma lookup_remove_eq k l : lookup k (remove k l) = None.
  Proof.
    induction l as [|[k' v] r IH]; [reflexivity|]. cbn [remove].
    destruct (N.eqb_spec k' k) as [->|Hn]; [exact IH|].
    cbn [lookup]. destruct (N.eqb_spec k' k); [congruence | exact IH].
  Qed.

  Lemma lookup_remove_neq k k' l : k <> k' -> lookup k' (remove k l) = lookup k' l.
  Proof.
    intros Hn. induction l as [|[k0 v] r IH]; [reflexivity|]. cbn [remove lookup].
    destruct (N.eqb_spec k0 k) as [->|H0].
    - destruct (N.eqb_spec k k'); [congruence | exact IH].
    - cbn [lookup]. destruct (N.eqb_spec k0 k'); [reflexivity | exact IH].
  Qed.

  Lemma lookup_insert_eq k v l : lookup k (insert k v l) = Some v.
  Proof. unfold insert. cbn [lookup]. rewrite N.eqb_refl. reflexivity. Qed.

  Lemma lookup_insert_neq k k' v l : k <> k' -> lookup k' (insert k v l) = lookup k' l.
  Proof.
    intros Hn. unfold insert. cbn [lookup].
    destruct (N.eqb_spec k k'); [congruence|]. apply lookup_remove_neq. exact Hn.
  Qed.

  Lemma lookup_none_remove k l : lookup k l = None -> remove k l = l.
  Proof.
    induction l as [|[k' v] r IH]; [reflexivity|]. cbn [lookup remove].
    destruct (N.eqb_spec k' k); [discriminate|]. intros H. rewrite (IH H). reflexivity.
  Qed.

  Lemma in_keys_remove k k' l : In k' (keys (remove k l)) -> In k' (keys l) /\ k' <> k.
  Proof.
    induction l as [|[k0 v] r IH]; cbn [remove keys map]; [tauto|].
    destruct (N.eqb_spec k0 k) as [->|H0].
    - intros H. destruct (IH H). split; [right; assumption | assumption].
    - cbn [keys map fst]. intros [<-|H]; [split; [left; reflexivity | exact H0]|].
      destruct (IH H). split; [right; assumption | assumption].
  Qed.

  Lemma nodup_remove k l : NoDup (keys l) -> NoDup (keys (remove k l)).
  Proof.
    induction l as [|[k0 v] r IH]; cbn [remove keys map]; [auto|].
    intros H. inversion H as [|? ? Hni Hnd]; subst.
    destruct (N.eqb_spec k0 k); [apply IH; exact Hnd|].
    cbn [keys map fst]. constructor; [|apply IH; exact Hnd].
    intros Hin. apply in_keys_remove in Hin. destruct Hin as [Hin _]. apply Hni. exact Hin.
  Qed.

  Lemma nodup_insert k v l : NoDup (keys l) -> NoDup (keys (insert k v l)).
  Proof.
    intros H. unfold insert. cbn [keys map fst]. constructor; [|apply nodup_remove; exact H].
    intros Hin. apply in_keys_remove in Hin. destruct Hin as [_ Hne]. congruence.
  Qed.

  Lemma lookup_in_keys k l v : lookup k l = Some v -> In k (keys l).
  Proof.
    induction l as [|[k0 v0] r IH]; cbn [lookup keys map fst]; [discriminate|].
    destruct (N.eqb_spec k0 k); [intros _; left; assumption | intros H; right; apply IH; exact H].
  Qed.

  Lemma lookup_not_in_keys k l : ~ In k (keys l) -> lookup k l = None.
  Proof.
    intros H. destruct (lookup k l) eqn:E; [|reflexivity]. elim H. eapply lookup_in_keys, E.
  Qed.

  Lemma length_remove_present k l v :
    NoDup (keys l) -> lookup k l = Some v -> S (length (remove k l)) = length l.
  Proof.
    induction l as [|[k0 v0] r IH]; cbn [lookup remove keys map fst length]; [discriminate|].
    intros Hnd H. inversion Hnd as [|? ? Hni Hnd']; subst.
    destruct (N.eqb_spec k0 k) as [->|Hne].
    - rewrite lookup_none_remove; [reflexivity|]. apply lookup_not_in_keys. exact Hni.
    - cbn [length]. rewrite (IH Hnd' H). reflexivity.
  Qed.

  Lemma only_app k l1 l2 : only k (l1 ++ l2) = only k l1 ++ only k l2.
  Proof. unfold only. rewrite filter_app, map_app. reflexivity. Qed.

  Lemma only_cons k k' v l : only k ((k', v) :: l) = if k' =? k then v :: only k l else only k l.
  Proof. unfold only. cbn [filter fst]. destruct (k' =? k); reflexivity. Qed.

  Lemma only_cons_eq k v l : only k ((k, v) :: l) = v :: only k l.
  Proof. rewrite only_cons, N.eqb_refl. reflexivity. Qed.

  Lemma only_cons_neq k k' v l : k' <> k -> only k ((k', v) :: l) = only k l.
  Proof. intros H. rewrite only_cons, (proj2 (N.eqb_neq _ _) H). reflexivity. Qed.

  Lemma only_nil k : only k (@nil (N * A)) = [].
  Proof. reflexivity. Qed.
  Lemma lookup_hd_only k l : lookup k l = hd_error (only k l).
  Proof.
    induction l as [|[k' v'] r IH]; [reflexivity|]. cbn [lookup].
    destruct (N.eqb_spec k' k) as [->|Hn]; [rewrite only_cons_eq | rewrite only_cons_neq by exact Hn]; auto.
  Qed.

  Lemma lookup_only k l v : lookup k l = Some v -> exists rest, only k l = v :: rest.
  Proof. rewrite lookup_hd_only. destruct (only k l); [discriminate|]. intros H. injection H as ->. eauto. Qed.

  Lemma only_lookup_nodup k l v : NoDup (keys l) -> lookup k l = Some v -> only k l = [v].
  Proof.
    induction l as [|[k' v'] r IH]; cbn [lookup keys map fst]; [discriminate|].
    intros Hnd H. inversion Hnd as [|? ? Hni Hnd']; subst.
    destruct (N.eqb_spec k' k) as [->|Hn].
    - injection H as ->. rewrite only_cons_eq. f_equal.
      apply lookup_not_in_keys in Hni. rewrite lookup_hd_only in Hni. destruct (only k r); [reflexivity | discriminate].
    - rewrite only_cons_neq by exact Hn. apply IH; assumption.
  Qed.

  Lemma only_map k (h : A -> A) l : only k (map (fun p => (fst p, h (snd p))) l) = map h (only k l).
  Proof.
    unfold only. induction l as [|[k' v] r IH]; [reflexivity|]. cbn [map filter fst snd].
    destruct (k' =? k); cbn [map snd]; rewrite IH; reflexivity.
  Qed.

  Definition upd (k : N) (h : A -> A) l : list (N * A) :=
    match lookup k l with Some v => insert k (h v) l | None => l end.

  Lemma lookup_upd k h l k' :
    lookup k' (upd k h l) = if k =? k' then option_map h (lookup k' l) else lookup k' l.
  Proof.
    unfold upd. destruct (N.eqb_spec k k') as [<-|Hn]; destruct (lookup k l) eqn:E; rewrite ?E; try reflexivity.
    - apply lookup_insert_eq.
    - apply lookup_insert_neq, Hn.
  Qed.

  Lemma nodup_upd k h l : NoDup (keys l) -> NoDup (keys (upd k h l)).
  Proof. intros H. unfold upd. destruct (lookup k l); [apply nodup_insert|]; exact H. Qed.
End Assoc.

Definition view (b : N) (st : sess) : option stream * list stream :=
  (lookup b (tbl st), only b (gone st)).

Definition detached (cur : option stream) (old : list stream) : list stream :=
  match cur with Some s => old ++ [drop_tx s] | None => old end.

Lemma detach_view sid b t g :
  let '(t', g') := detach sid t g in
  (lookup b t', only b g') =
    if sid =? b then (None, detached (lookup b t) (only b g)) else (lookup b t, only b g).
Proof.
  unfold detach. destruct (N.eqb_spec sid b) as [<-|Hn]; destruct (lookup sid t) as [s|] eqn:E.
  - rewrite lookup_remove_eq, only_app, only_cons_eq. reflexivity.
  - rewrite E. reflexivity.
  - rewrite lookup_remove_neq, only_app, only_cons_neq, app_nil_r by exact Hn. reflexivity.
  - reflexivity.
Qed.

Lemma close_view b st :
  view b (fst (close st)) =
    if s_closed st then view b st else (None, only b (gone st) ++ map kill (only b (tbl st))).
Proof.
  unfold close, view. destruct (s_closed st); [reflexivity|]. cbn [fst tbl gone].
  rewrite only_app, (only_map b kill). reflexivity.
Qed.

Lemma detach_nodup sid t g :
  NoDup (keys t) -> NoDup (keys (fst (detach sid t g))).
Proof.
  intros H. unfold detach. destruct (lookup sid t); cbn [fst]; [apply nodup_remove; exact H | exact H].
Qed.

Lemma detach_length sid t g :
  NoDup (keys t) ->
  length (fst (detach sid t g)) = match lookup sid t with Some _ => pred (length t) | None => length t end.
Proof.
  intros H. unfold detach. destruct (lookup sid t) as [s|] eqn:E; cbn [fst]; [|reflexivity].
  rewrite <- (length_remove_present sid t s H E). reflexivity.
Qed.

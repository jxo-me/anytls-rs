(* ConcFair.v -- "promptly": under any fair schedule (round-robin is one) the session's own machinery comes to rest
   within a number of rounds bounded by the programs alone, from EVERY reachable state, and at rest every task has
   finished, waits for the peer / the application, or is blocked by the stalled transport (known finding F4) --
   nothing else.
   Composition of ConcTerm (every step pays from a potential that no other task's step refills) and
   ConcDeath.no_deadlock (a task that cannot move and is none of the above has an enabled lock holder in front). *)
From Coq Require Import List NArith ZArith Lia Bool.
From AnyTLS Require Import Bytes Cmd Generated Frame Conc ConcInv ConcDeath ConcTerm.
Import ListNotations.
Local Open Scope nat_scope.

(* what a step of another task can do to the receive task's potential: only a CFeed call sets the receive task in
   motion, and that call pays for it *)
Lemma step_recv_mu s t s' :
  Inv s -> step s t = Some s' -> t <> rtid ->
  mu s' rtid <= mu s rtid \/ (mu s' rtid <= mu s rtid + 3 /\ mu s' t + 4 <= mu s t).
Proof.
  intros HI H Hne.
  assert (rtid <> t) as Hne' by (intros X; apply Hne; symmetry; exact X).
  unfold mu. rewrite (step_bystander _ tr_prog s t s' rtid H Hne').
  destruct (step_others s t s' HI H rtid Hne')
    as [E|k f A B _|a k A B _ _|_ A (Ei & ev & rest & Ep) B|A _ _ [B|[f B]]].
  - left. rewrite E. lia.
  - left. rewrite A, B. cbn. lia.
  - left. rewrite A, B. cbn. lia.
  - right. split; [rewrite A; destruct B as [B|B]; rewrite B; cbn; lia|].
    pose proof (step_self s t s' H) as M. rewrite Ei, Ep in M |- *. revert M.
    generalize (pcof s' t) (t_prog (tasks s' t)). intros q prog' M. inversion M. cbn. lia.
  - left. rewrite A, B. cbn. lia.
  - left. rewrite A, B. cbn. lia.
Qed.

Fixpoint sumf (f : tid -> nat) (l : list tid) : nat :=
  match l with [] => 0 | t :: r => f t + sumf f r end.

Lemma sumf_le f g l : (forall u, In u l -> g u <= f u) -> sumf g l <= sumf f l.
Proof.
  induction l as [|x l IH]; intros H; cbn; [lia|].
  pose proof (H x (or_introl eq_refl)). assert (sumf g l <= sumf f l) by (apply IH; intros u Hu; apply H; right; exact Hu). lia.
Qed.
Lemma sumf_dec f g l t d :
  (forall u, In u l -> g u <= f u) -> In t l -> g t + d <= f t -> sumf g l + d <= sumf f l.
Proof.
  induction l as [|x l IH]; intros H Hin Hd; [destruct Hin|]. cbn.
  assert (forall u, In u l -> g u <= f u) as H' by (intros u Hu; apply H; right; exact Hu).
  destruct Hin as [->|Hin].
  - pose proof (sumf_le f g l H'). lia.
  - pose proof (H x (or_introl eq_refl)). pose proof (IH H' Hin Hd). lia.
Qed.

Definition total (n : nat) (s : state) : nat := sumf (mu s) (seq 0 n).

Lemma seq_head n : 0 < n -> seq 0 n = rtid :: seq 1 (n - 1).
Proof. intros H. destruct n; [lia|]. cbn. rewrite Nat.sub_0_r. reflexivity. Qed.

Theorem step_total n s t s' : Inv s -> step s t = Some s' -> t < n -> total n s' < total n s.
Proof.
  intros HI H Hlt. unfold total.
  assert (In t (seq 0 n)) as Hin by (apply in_seq; lia).
  pose proof (step_self_mu s t s' H) as Hself.
  destruct (Nat.eq_dec t rtid) as [->|Hne].
  - (* the receive task itself steps: nobody else's potential grows *)
    assert (sumf (mu s') (seq 0 n) + 1 <= sumf (mu s) (seq 0 n)); [|lia].
    apply sumf_dec with (t := rtid); [|exact Hin|lia].
    intros u Hu. destruct (Nat.eq_dec u rtid) as [->|Hur]; [lia|].
    apply (step_other_mu s rtid s' u HI H Hur Hur).
  - rewrite (seq_head n) by lia. cbn [sumf].
    assert (In t (seq 1 (n - 1))) as Hin1 by (apply in_seq; unfold rtid in Hne; lia).
    assert (forall u, In u (seq 1 (n - 1)) -> mu s' u <= mu s u) as Hle.
    { intros u Hu. apply in_seq in Hu. destruct (Nat.eq_dec u t) as [->|Hut]; [lia|].
      apply (step_other_mu s t s' u HI H Hut). unfold rtid. lia. }
    destruct (step_recv_mu s t s' HI H Hne) as [R|[R P]].
    + pose proof (sumf_dec (mu s) (mu s') (seq 1 (n - 1)) t 1 Hle Hin1 ltac:(lia)). lia.
    + pose proof (sumf_dec (mu s) (mu s') (seq 1 (n - 1)) t 4 Hle Hin1 P). lia.
Qed.

Definition stuck_on (l : list tid) (s : state) : Prop := forall u, In u l -> step s u = None.

Lemma run_stuck l : forall s, stuck_on l s -> run s l = s.
Proof.
  induction l as [|x l IH]; intros s S; [reflexivity|].
  rewrite run_cons. unfold step_or_skip. rewrite (S x (or_introl eq_refl)).
  apply IH. intros u Hu. apply S. right. exact Hu.
Qed.

(* a segment either changes nothing or pays *)
Lemma run_segment n l : forall s, Inv s -> (forall u, In u l -> u < n) ->
  (stuck_on l s /\ run s l = s) \/ total n (run s l) < total n s.
Proof.
  induction l as [|x l IH]; intros s HI Hb; [left; split; [intros u [] | reflexivity]|].
  assert (forall u, In u l -> u < n) as Hb' by (intros u Hu; apply Hb; right; exact Hu).
  rewrite run_cons. unfold step_or_skip. destruct (step s x) as [s1|] eqn:E.
  - right. pose proof (step_total n s x s1 HI E (Hb x (or_introl eq_refl))) as P.
    destruct (IH s1 (step_inv s x s1 HI E) Hb') as [[_ R]|Q]; [rewrite R; exact P | lia].
  - destruct (IH s HI Hb') as [[S R]|Q]; [left | right; exact Q].
    split; [|exact R]. intros u [->|Hu]; [exact E | apply S; exact Hu].
Qed.

Definition covering (n : nat) (l : list tid) : Prop :=
  (forall u, In u l -> u < n) /\ (forall u, u < n -> In u l).

(* the potential bounds the number of segments in which anything happens *)
Theorem segments_rest n segs : forall s,
  Forall (covering n) segs -> Inv s -> stuck_on (seq 0 n) s \/ total n s < length segs ->
  stuck_on (seq 0 n) (run s (concat segs)).
Proof.
  induction segs as [|l segs IH]; intros s F HI H; [destruct H as [S|L]; [exact S | cbn in L; lia]|].
  inversion F as [|? ? (Hb & Hc) F']; subst. cbn [concat]. rewrite run_app.
  assert (stuck_on l s -> stuck_on (seq 0 n) s) as Up by (intros S u Hu; apply S, Hc; apply in_seq in Hu; lia).
  assert (stuck_on (seq 0 n) s -> stuck_on (seq 0 n) (run (run s l) (concat segs))) as Rest.
  { intros S. assert (stuck_on l s) as Sl by (intros u Hu; apply S, in_seq; pose proof (Hb u Hu); lia).
    rewrite (run_stuck l s Sl). apply IH; [exact F' | exact HI | left; exact S]. }
  destruct H as [S|L]; [apply Rest; exact S|].
  destruct (run_segment n l s HI Hb) as [[S _]|P]; [apply Rest, Up; exact S|].
  apply IH; [exact F' | apply run_inv; exact HI | right; cbn [length] in L; lia].
Qed.

Fixpoint rounds (n N : nat) : list tid :=
  match N with 0 => [] | S N' => seq 0 n ++ rounds n N' end.

Lemma rounds_segments n N : exists segs, rounds n N = concat segs /\ Forall (covering n) segs /\ length segs = N.
Proof.
  induction N as [|N (segs & E & F & L)]; [exists []; repeat split; constructor|].
  exists (seq 0 n :: segs). cbn [rounds concat length]. rewrite E, L. split; [reflexivity | split; [|reflexivity]].
  constructor; [|exact F]. split; intros u Hu; [apply in_seq in Hu | apply in_seq]; lia.
Qed.

Theorem rounds_rest n N : forall s, Inv s -> total n s < N -> stuck_on (seq 0 n) (run s (rounds n N)).
Proof.
  intros s HI Lt. destruct (rounds_segments n N) as (segs & E & F & L). rewrite E.
  apply segments_rest; [exact F | exact HI | right; rewrite L; exact Lt].
Qed.

Definition beyond (n : nat) (s : state) : Prop :=
  forall t, n <= t -> pcof s t = PIdle /\ t_prog (tasks s t) = [].

Lemma beyond_init progs buf pend : beyond (length progs) (init progs buf pend).
Proof.
  intros t Ht. split; [reflexivity|]. cbn. apply nth_overflow. exact Ht.
Qed.

Lemma beyond_stuck n s u : beyond n s -> n <= u -> step s u = None.
Proof. intros B G. destruct (B u G) as [P Q]. unfold step. unfold pcof in P. rewrite P, Q. reflexivity. Qed.

(* only a task of the list steps; the receive task is one of them, so nobody beyond is set in motion *)
Lemma beyond_step n s t s' : Inv s -> beyond n s -> step s t = Some s' -> t < n /\ beyond n s'.
Proof.
  intros HI B H.
  assert (t < n) as L.
  { destruct (Nat.lt_ge_cases t n) as [L|G]; [exact L|]. rewrite (beyond_stuck n s t B G) in H. discriminate. }
  split; [exact L|]. intros u Hu.
  assert (u <> t) as Hut by lia.
  destruct (B u Hu) as [P Q]. split.
  - destruct (step_others s t s' HI H u Hut) as [E|k f A _ _|a k A _ _ _|A _ _ _|A _ _ _]; try congruence.
    unfold rtid in A. lia.
  - rewrite (step_bystander _ tr_prog s t s' u H Hut). exact Q.
Qed.

(* under any schedule at all the tasks beyond the list stay out and the potential does not grow *)
Lemma beyond_run n K sched : forall s, Inv s -> beyond n s /\ total n s <= K ->
  beyond n (run s sched) /\ total n (run s sched) <= K.
Proof.
  apply (run_invariant (fun s => beyond n s /\ total n s <= K)). intros s t s' HI [B L] H.
  destruct (beyond_step n s t s' HI B H) as [Lt B']. split; [exact B'|].
  pose proof (step_total n s t s' HI H Lt). lia.
Qed.

Definition transport_blocked (s : state) (t : tid) : Prop :=
  in_transport s t \/ (waits_pc (pcof s t) = true /\ exists h, wr s = Some h /\ in_transport s h).

Lemma rest_stuck n s : beyond n s -> stuck_on (seq 0 n) s -> forall u, step s u = None.
Proof.
  intros B S u. destruct (Nat.lt_ge_cases u n) as [L|G]; [apply S, in_seq; lia | exact (beyond_stuck n s u B G)].
Qed.

Theorem at_rest n s :
  Inv s -> beyond n s -> stuck_on (seq 0 n) s ->
  forall t, finished s t \/ awaits_peer s t \/ awaits_app s t \/ transport_blocked s t.
Proof.
  intros HI B S t. pose proof (rest_stuck n s B S) as SA.
  destruct (no_deadlock s t HI) as [A|[[A|A]|[A|[(W & h & E & [A|A])|A]]]]; auto.
  - exfalso. apply A. apply SA.
  - exfalso. apply A. apply SA.
  - right; right; right. right. split; [exact W|]. exists h. split; assumption.
  - right; right; right. left. exact A.
Qed.

Lemma total_init progs buf pend : total (length progs) (init progs buf pend) = sumf (fun t => progw (nth t progs [])) (seq 0 (length progs)).
Proof. unfold total. reflexivity. Qed.

(* any fair schedule: after any prefix, more segments than the programs' budgets, each of which grants every task
   at least once, bring the session to rest *)
Lemma fair_rest progs buf pend sched0 segs :
  let n := length progs in
  Forall (covering n) segs ->
  sumf (fun t => progw (nth t progs [])) (seq 0 n) < length segs ->
  let s := run (run (init progs buf pend) sched0) (concat segs) in
  Inv s /\ beyond n s /\ stuck_on (seq 0 n) s.
Proof.
  intros n F Hlen s.
  assert (Inv (run (init progs buf pend) sched0)) as HI0 by (apply run_inv, inv_init).
  destruct (beyond_run n _ sched0 _ (inv_init progs buf pend) (conj (beyond_init progs buf pend) (Nat.le_refl _))) as [B0 L0].
  pose proof (total_init progs buf pend) as TI. fold n in TI.
  split; [apply run_inv; exact HI0 | split].
  - apply (beyond_run n _ (concat segs) _ HI0 (conj B0 L0)).
  - apply segments_rest; [exact F | exact HI0 | right; lia].
Qed.

Theorem fair_release_any progs buf pend sched0 segs :
  let n := length progs in
  let s0 := run (init progs buf pend) sched0 in
  Forall (covering n) segs ->
  sumf (fun t => progw (nth t progs [])) (seq 0 n) < length segs ->
  let s := run s0 (concat segs) in
  forall t, finished s t \/ awaits_peer s t \/ awaits_app s t \/ transport_blocked s t.
Proof.
  intros n s0 F Hlen s. destruct (fair_rest progs buf pend sched0 segs F Hlen) as (HI & B & S).
  exact (at_rest n s HI B S).
Qed.

(* round-robin is one such schedule *)
Lemma rounds_fair_rest progs buf pend sched0 N :
  let n := length progs in
  sumf (fun t => progw (nth t progs [])) (seq 0 n) < N ->
  let s := run (run (init progs buf pend) sched0) (rounds n N) in
  Inv s /\ beyond n s /\ stuck_on (seq 0 n) s.
Proof.
  intros n Lt s. unfold s. destruct (rounds_segments n N) as (segs & E & F & L). rewrite E.
  apply fair_rest; [exact F | rewrite L; exact Lt].
Qed.

Theorem fair_release progs buf pend sched0 :
  let n := length progs in
  let s0 := run (init progs buf pend) sched0 in
  let N := S (sumf (fun t => progw (nth t progs [])) (seq 0 n)) in
  let s := run s0 (rounds n N) in
  forall t, finished s t \/ awaits_peer s t \/ awaits_app s t \/ transport_blocked s t.
Proof.
  intros n s0 N s. destruct (rounds_fair_rest progs buf pend sched0 N (Nat.lt_succ_diag_r _)) as (HI & B & S). exact (at_rest n s HI B S).
Qed.

Lemma rest_quiescent n s :
  Inv s -> beyond n s -> stuck_on (seq 0 n) s -> stalled s = false -> quiescent_close s.
Proof.
  intros HI B S St x. pose proof (rest_stuck n s B S) as SA.
  destruct (no_deadlock s x HI) as [(P & _)|[[(P & _)|P]|[A|[(_ & h & _ & [A|(A & _)])|(A & _)]]]].
  - rewrite P. reflexivity.
  - rewrite P. reflexivity.
  - rewrite P. reflexivity.
  - destruct (A (SA x)).
  - destruct (A (SA h)).
  - congruence.
  - congruence.
Qed.

Definition awaits_verdict (s : state) (t : tid) : Prop :=
  pcof s t = PIdle /\ exists rest, t_prog (tasks s t) = CAwait :: rest /\ t_sid (tasks s t) <> None /\ t_verdict (tasks s t) = None.

Theorem dead_at_rest progs buf pend sched0 :
  let n := length progs in
  let s0 := run (init progs buf pend) sched0 in
  let N := S (sumf (fun t => progw (nth t progs [])) (seq 0 n)) in
  let s := run s0 (rounds n N) in
  closed s = true -> stalled s = false ->
  forall t, finished s t \/ awaits_app s t \/ awaits_verdict s t.
Proof.
  intros n s0 N s. destruct (rounds_fair_rest progs buf pend sched0 N (Nat.lt_succ_diag_r _)) as (HI & B & S).
  subst s s0 N n. rewrite <- run_app in *.
  intros C St t.
  destruct (at_rest _ _ HI B S t) as [A|[(Pi & rest & [(Ep & Es & Ev)|(Ep & Esid & Eq & Ec)])|[A|A]]].
  - left. exact A.
  - right; right. split; [exact Pi|]. exists rest. auto.
  - (* a parked reader: on a dead session at rest its queue is closed *)
    exfalso. destruct (t_sid (tasks _ t)) as [sid|] eqn:Esd; [|apply Esid; reflexivity].
    destruct (dead_session_readers _ progs buf pend C (rest_quiescent _ _ HI B S St) t sid Esd) as [X|[X|[X|X]]];
      congruence.
  - right; left. exact A.
  - exfalso. destruct A as [(A & _)|(_ & h & _ & (A & _))]; congruence.
Qed.

(* AuthProofs.v -- the authentication preamble of Model/Auth.v (C06).  auth_parse_eq writes the parser as three
   length and hash tests, from which acceptance, refusal and the incomplete cases follow; server_conn_eq does the
   same for handle_connection: no session event before, or without, an accepted preamble. *)
From Coq Require Import List NArith ZArith Lia Bool.
From AnyTLS Require Import Bytes Reader ReaderProg Generated FactsParsers Auth BytesFacts ReaderProofs.
Import ListNotations.
Open Scope N_scope.

Lemma auth_parse_eq H b :
  auth_parse H b =
  if 32 <=? lenN b then
    if bytes_eqb (takeN 32 b) H then
      if 34 + auth_L b <=? lenN b then Accept tt (dropN (34 + auth_L b) b) else NeedMore
    else Reject E_AUTH
  else NeedMore.
Proof.
  unfold auth_parse, auth_prog, hash_len. rewrite auth_hash_len_32. cbn [run_bytes].
  destruct (N.leb_spec 32 (lenN b)) as [H32|H32]; [|reflexivity].
  destruct (bytes_eqb (takeN 32 b) H); [|reflexivity].
  cbn [run_bytes]. rewrite lenN_dropN.
  rewrite de16_of_take2_drop. change (N.to_nat 32) with 32%nat. fold (auth_L b).
  destruct (N.leb_spec 2 (lenN b - 32)) as [H2|H2].
  - destruct (N.eqb_spec (auth_L b) 0) as [E0|E0].
    + rewrite E0. cbn [run_bytes]. rewrite dropN_dropN.
      destruct (N.leb_spec (34 + 0) (lenN b)); [reflexivity | lia].
    + cbn [run_bytes]. rewrite !lenN_dropN, !dropN_dropN.
      destruct (N.leb_spec (auth_L b) (lenN b - 32 - 2));
        destruct (N.leb_spec (34 + auth_L b) (lenN b)); try lia; try reflexivity.
      f_equal. f_equal. lia.
  - destruct (N.leb_spec (34 + auth_L b) (lenN b)); [lia | reflexivity].
Qed.

Lemma takeN_eq_len {A} n (b h : list A) : takeN n b = h -> lenN h = n -> n <= lenN b.
Proof. intros <- Hl. rewrite lenN_takeN_min in Hl. lia. Qed.

Section Auth.
Variable H : bytes.
Hypothesis Hlen : lenN H = 32.

Lemma auth_iff b r :
  auth_parse H b = Accept tt r <->
  takeN 32 b = H /\ 34 + auth_L b <= lenN b /\ r = dropN (34 + auth_L b) b.
Proof using Hlen.
  rewrite auth_parse_eq. split.
  - destruct (N.leb_spec 32 (lenN b)); [|discriminate].
    destruct (bytes_eqb (takeN 32 b) H) eqn:E; [|discriminate].
    apply bytes_eqb_eq in E.
    destruct (N.leb_spec (34 + auth_L b) (lenN b)); [|discriminate].
    intros Hx. inversion Hx. auto.
  - intros (Ht & Hl & ->).
    destruct (N.leb_spec 32 (lenN b)); [|lia].
    rewrite Ht, bytes_eqb_refl.
    destruct (N.leb_spec (34 + auth_L b) (lenN b)); [reflexivity | lia].
Qed.

Lemma auth_reject b : 32 <= lenN b -> takeN 32 b <> H -> auth_parse H b = Reject E_AUTH.
Proof using.
  intros Hl Hne. rewrite auth_parse_eq. apply N.leb_le in Hl. rewrite Hl, (bytes_eqb_neq _ _ Hne). reflexivity.
Qed.

(* a wrong preamble is never accepted, whatever follows it *)
Lemma auth_accept_only_hash b r : auth_parse H b = Accept tt r -> takeN 32 b = H.
Proof using Hlen. intros Hx. apply auth_iff in Hx. tauto. Qed.

Lemma auth_short b : lenN b < 32 -> auth_parse H b = NeedMore.
Proof using. intros Hl. rewrite auth_parse_eq. apply N.leb_gt in Hl. now rewrite Hl. Qed.

Lemma auth_exact_only : exact_only E_EOF (auth_prog H).
Proof.
  unfold auth_prog, hash_len. constructor. intros h. destruct (bytes_eqb h H); [|constructor].
  constructor. intros l. destruct (de16_of l =? 0); constructor. intros _. constructor.
Qed.

Lemma auth_truncated p s :
  auth_parse H (p ++ s) = Accept tt [] -> s <> [] ->
  auth_parse H p = NeedMore /\ run_eof (auth_prog H) p = FFail E_EOF.
Proof.
  intros Ha Hs. pose proof (run_bytes_proper_prefix (auth_prog H) p s tt Ha Hs) as Hn.
  split; [exact Hn|]. apply (run_eof_needmore _ _ auth_exact_only). exact Hn.
Qed.

Lemma auth_preamble_accepted n rest :
  n < 65536 -> auth_parse H (auth_preamble H n ++ rest) = Accept tt rest.
Proof using Hlen.
  intros Hn. unfold auth_parse, auth_prog, auth_preamble, hash_len. rewrite auth_hash_len_32, <- !app_assoc.
  rewrite run_exact_app, bytes_eqb_refl, run_exact_app, de16_of_be16 by (exact Hlen || reflexivity || exact Hn).
  destruct (N.eqb_spec n 0) as [->|_]; [reflexivity|]. now rewrite run_exact_app by apply lenN_zeros.
Qed.

Section Conn.
Variable ev : Type.
Variable session : bytes -> bool -> list ev.

Lemma server_conn_eq chunks closed :
  server_conn ev session H chunks closed =
  match auth_parse H (concat chunks) with
  | Accept _ r => CAuthOk :: map CSession (session r closed)
  | Reject e => [CAuthFail e]
  | NeedMore => if closed then [CAuthFail E_EOF] else []
  end.
Proof.
  unfold server_conn, auth_parse. pose proof (rd_wf_of_chunks chunks closed) as Hwf.
  rewrite <- (rd_pending_of_chunks chunks closed).
  destruct (run_bytes (auth_prog H) (rd_pending_bytes (rd_of_chunks chunks closed))) as [|e|v r] eqn:E.
  - destruct (run_rd_needmore _ _ E_EOF Hwf auth_exact_only E) as (st' & ->). now destruct closed.
  - destruct (run_rd_reject _ _ e Hwf E) as (st' & ->). reflexivity.
  - destruct (run_rd_accept _ _ v r Hwf E) as (st' & -> & -> & -> & _). reflexivity.
Qed.

Lemma server_conn_no_effects chunks closed :
  (forall e, In (CSession e) (server_conn ev session H chunks closed) ->
     exists r, auth_parse H (concat chunks) = Accept tt r /\ In e (session r closed)) /\
  (In CAuthOk (server_conn ev session H chunks closed) ->
     exists r, auth_parse H (concat chunks) = Accept tt r) /\
  (forall r, auth_parse H (concat chunks) = Accept tt r ->
     server_conn ev session H chunks closed = CAuthOk :: map CSession (session r closed)).
Proof.
  rewrite server_conn_eq. destruct (auth_parse H (concat chunks)) as [|e|[] r] eqn:E.
  - split; [|split]; [intros e Hin|intros Hin|discriminate]; destruct closed; cbn in Hin; intuition discriminate.
  - split; [|split]; [intros e' Hin|intros Hin|discriminate]; cbn in Hin; intuition discriminate.
  - split; [|split].
    + intros e Hin. exists r. split; [reflexivity|]. cbn [In] in Hin. destruct Hin as [Hin|Hin]; [discriminate|].
      apply in_map_iff in Hin. destruct Hin as (x & Hx & Hin). inversion Hx; subst. exact Hin.
    + intros _. exists r. reflexivity.
    + intros r' Hr'. inversion Hr'; subst. reflexivity.
Qed.

End Conn.
End Auth.

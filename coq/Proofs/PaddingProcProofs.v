(* PaddingProcProofs.v -- C19: the process-level model (replaceable default scheme, client, sessions) *)
From Coq Require Import List NArith ZArith Lia Bool Arith.
From AnyTLS Require Import Bytes Padding BytesFacts.
Import ListNotations.
Open Scope N_scope.

Lemma default_scheme_parses :
  exists s, factory_new default_scheme = Some s /\ sc_stop s = 8 /\ sc_raw s = default_scheme /\ builtin_scheme = s.
Proof. eexists. split; [vm_compute; reflexivity|]. split; [|split]; reflexivity. Qed.

Lemma factory_new_raw raw s : factory_new raw = Some s -> sc_raw s = raw.
Proof.
  unfold factory_new. destruct (map_get key_stop (parse_map raw)); [|discriminate].
  destruct (parse_u32 b); [|discriminate]. intros H; inversion H. reflexivity.
Qed.

Lemma factory_new_nil : factory_new [] = None.
Proof. reflexivity. Qed.

Section WithMd5.
  Variable md5 : bytes -> bytes.

  Lemma server_push_same srv cl :
    sc_raw cl = sc_raw srv -> server_on_announce md5 srv (Some (scheme_md5 md5 cl)) = None.
  Proof. intros H. unfold server_on_announce, scheme_md5. rewrite H, bytes_eqb_refl. reflexivity. Qed.

  Lemma server_push_differs srv cl :
    (forall a b, md5 a = md5 b -> a = b) -> sc_raw cl <> sc_raw srv ->
    server_on_announce md5 srv (Some (scheme_md5 md5 cl)) = Some (sc_raw srv).
  Proof.
    intros Hinj H. unfold server_on_announce, scheme_md5.
    rewrite bytes_eqb_neq; [reflexivity|]. intros E. apply H. apply Hinj. exact E.
  Qed.

  Lemma server_no_announce srv : server_on_announce md5 srv None = None.
  Proof. reflexivity. Qed.
End WithMd5.

Definition proc_with (p : proc) (f : scheme) : proc :=
  {| p_builtin_made := p_builtin_made p; p_updated := Some f |}.

Lemma on_update_adopts p s raw f :
  cs_client s = true -> factory_new raw = Some f ->
  on_update p s raw = (proc_with p f, sess_set_scheme s f).
Proof.
  intros Hc Hf. unfold on_update, proc_update. rewrite Hc.
  destruct raw as [|b raw']; [rewrite factory_new_nil in Hf; discriminate|].
  cbn [is_nil negb andb]. rewrite Hf. reflexivity.
Qed.

Lemma on_update_ignored p s raw : factory_new raw = None -> on_update p s raw = (p, s).
Proof.
  intros Hf. unfold on_update, proc_update. rewrite Hf.
  destruct (cs_client s && negb (is_nil raw)); reflexivity.
Qed.

Lemma on_update_server p s raw : cs_client s = false -> on_update p s raw = (p, s).
Proof. intros H. unfold on_update. rewrite H. reflexivity. Qed.

Lemma adopted_is_default p f : proc_default (proc_with p f) = (f, proc_with p f).
Proof. reflexivity. Qed.

Lemma adopted_next_session p f cl : session_padding (proc_with p f) cl = f.
Proof. reflexivity. Qed.

Lemma update_any_time p raw f : factory_new raw = Some f -> proc_update p raw = Some (proc_with p f).
Proof. intros H. unfold proc_update. rewrite H. reflexivity. Qed.

Lemma sess_write_after_update s f d e :
  cs_buffering s = false ->
  sess_write (sess_set_scheme s f) d e =
  (let '(r, c') := write_packet (sess_pads s) f (cs_counter s) d (cs_buffer s ++ e) in
   ({| cs_client := cs_client s; cs_scheme := f; cs_counter := c'; cs_buffering := false; cs_buffer := [] |}, Some r)).
Proof. intros Hb. unfold sess_write, sess_set_scheme, sess_pads. cbn. rewrite Hb. reflexivity. Qed.

Definition adopted (raw : bytes) : option scheme := factory_new raw.

(* the scheme the process has adopted after history h, when it started with `cur` and n open sessions *)
Fixpoint adopted_after (h : list event) (n : nat) (cur : option scheme) : option scheme :=
  match h with
  | [] => cur
  | EvNewSession :: t => adopted_after t (S n) cur
  | EvPush i raw :: t =>
      adopted_after t n (if (i <? n)%nat then match adopted raw with Some f => Some f | None => cur end else cur)
  | _ :: t => adopted_after t n cur
  end.

(* the scheme of the (already open) session i after history h *)
Fixpoint scheme_after (h : list event) (i : nat) (cur : scheme) : scheme :=
  match h with
  | [] => cur
  | EvPush j raw :: t =>
      scheme_after t i (if (j =? i)%nat then match adopted raw with Some f => f | None => cur end else cur)
  | _ :: t => scheme_after t i cur
  end.

Definition all_clients (w : world) : Prop := Forall (fun s => cs_client s = true) (w_sessions w).

Lemma upd_nth_spec {A} (P : A -> Prop) (l : list A) x : forall j y,
  nth_error l j = Some y -> Forall P l -> P x ->
  Forall P (upd_nth j l x) /\ length (upd_nth j l x) = length l /\
  forall i, nth_error (upd_nth j l x) i = if (j =? i)%nat then Some x else nth_error l i.
Proof.
  induction l as [|h t IH]; intros [|j] y Hj Hl Hx; try discriminate; inversion Hl; subst; cbn [upd_nth].
  - split; [constructor; assumption|]. split; [reflexivity|]. intros [|i]; reflexivity.
  - destruct (IH j y) as (A1 & B & C); try assumption.
    split; [constructor; assumption|]. split; [cbn; congruence|]. intros [|i]; [reflexivity|apply C].
Qed.

Lemma sess_write_keeps s d e : cs_client (fst (sess_write s d e)) = cs_client s /\ cs_scheme (fst (sess_write s d e)) = cs_scheme s.
Proof.
  unfold sess_write. destruct (cs_buffering s); [split; reflexivity|].
  destruct (write_packet (sess_pads s) (cs_scheme s) (cs_counter s) d (cs_buffer s ++ e)). split; reflexivity.
Qed.

Fixpoint count_new (h : list event) : nat :=
  match h with [] => 0 | EvNewSession :: t => S (count_new t) | _ :: t => count_new t end.

(* w' is w after the history h, as far as the adopted scheme and the schemes of the sessions of w are concerned *)
Definition tracks (h : list event) (w w' : world) : Prop :=
  all_clients w' /\ w_client w' = w_client w /\
  p_updated (w_proc w') = adopted_after h (length (w_sessions w)) (p_updated (w_proc w)) /\
  length (w_sessions w') = (length (w_sessions w) + count_new h)%nat /\
  (forall i s, nth_error (w_sessions w) i = Some s ->
     exists s', nth_error (w_sessions w') i = Some s' /\ cs_scheme s' = scheme_after h i (cs_scheme s)).

Lemma tracks_nil w : all_clients w -> tracks [] w w.
Proof. intros Hall. repeat split; [exact Hall|cbn; lia|eauto]. Qed.

Lemma step_inv w e : all_clients w -> tracks [e] w (step w e).
Proof.
  intros Hall. pose proof (tracks_nil w Hall) as Hsame. unfold tracks, all_clients in *.
  destruct e as [| |j raw|j d payload]; cbn [step adopted_after scheme_after count_new].
  - cbn [w_sessions w_client w_proc]. split; [exact Hall|]. split; [reflexivity|]. split; [|apply Hsame].
    unfold proc_default. destruct (p_updated (w_proc w)) eqn:E; cbn; [exact E | reflexivity].
  - cbn [w_sessions w_client w_proc].
    split; [apply Forall_app; split; [exact Hall | constructor; [reflexivity | constructor]]|].
    split; [reflexivity|]. split; [reflexivity|]. split; [rewrite app_length; cbn; lia|].
    intros i s H. exists s. split; [|reflexivity].
    rewrite nth_error_app1; [exact H | apply nth_error_Some; congruence].
  - destruct (nth_error (w_sessions w) j) as [sj|] eqn:Ej.
    + assert (cs_client sj = true) as Hcj by (rewrite Forall_forall in Hall; eapply Hall, nth_error_In, Ej).
      destruct (Nat.ltb_spec j (length (w_sessions w))) as [_|Hge];
        [|apply nth_error_None in Hge; congruence].
      (* the session takes the pushed scheme if it parses, and stays as it is otherwise *)
      set (s' := match adopted raw with Some f => sess_set_scheme sj f | None => sj end).
      assert (on_update (w_proc w) sj raw =
              (match adopted raw with Some f => proc_with (w_proc w) f | None => w_proc w end, s')) as ->.
      { unfold s', adopted. destruct (factory_new raw) as [f|] eqn:E;
          [apply on_update_adopts; assumption | apply on_update_ignored; assumption]. }
      cbn [w_sessions w_client w_proc].
      destruct (upd_nth_spec _ _ s' j sj Ej Hall) as (A & B & C); [unfold s'; destruct (adopted raw); exact Hcj|].
      split; [exact A|]. split; [reflexivity|]. split; [destruct (adopted raw); reflexivity|].
      split; [lia|]. intros i s H. rewrite C. destruct (Nat.eqb_spec j i) as [->|]; [|eauto].
      exists s'. split; [reflexivity|]. rewrite Ej in H. injection H as <-.
      unfold s'. destruct (adopted raw); reflexivity.
    + destruct (Nat.ltb_spec j (length (w_sessions w))) as [Hlt|_];
        [apply nth_error_Some in Hlt; congruence|].
      destruct Hsame as (S1 & S2 & S3 & S4 & S5). repeat split; try assumption.
      intros i s H. destruct (Nat.eqb_spec j i) as [->|]; [congruence|eauto].
  - destruct (nth_error (w_sessions w) j) as [sj|] eqn:Ej; [|exact Hsame].
    pose proof (sess_write_keeps sj d payload) as [Hk1 Hk2].
    assert (cs_client sj = true) as Hcj by (rewrite Forall_forall in Hall; eapply Hall, nth_error_In, Ej).
    destruct (sess_write sj d payload) as [s' r]. cbn [fst] in *.
    destruct (upd_nth_spec _ _ s' j sj Ej Hall) as (A & B & C); [congruence|].
    assert (forall i s, nth_error (w_sessions w) i = Some s ->
              exists s'', nth_error (upd_nth j (w_sessions w) s') i = Some s'' /\ cs_scheme s'' = cs_scheme s) as C'.
    { intros i s H. rewrite C. destruct (Nat.eqb_spec j i) as [->|]; [|eauto].
      exists s'. split; [reflexivity|congruence]. }
    destruct r; cbn [w_sessions w_client w_proc]; (repeat split; [exact A|lia|exact C']).
Qed.

Lemma count_new_app h1 h2 : count_new (h1 ++ h2) = (count_new h1 + count_new h2)%nat.
Proof. induction h1 as [|e h1 IH]; [reflexivity|]. destruct e; cbn [app count_new]; rewrite IH; reflexivity. Qed.

Lemma adopted_after_app h1 : forall h2 n cur,
  adopted_after (h1 ++ h2) n cur = adopted_after h2 (n + count_new h1) (adopted_after h1 n cur).
Proof.
  induction h1 as [|e h1 IH]; intros h2 n cur; cbn [app adopted_after count_new].
  - rewrite Nat.add_0_r. reflexivity.
  - destruct e; cbn [adopted_after count_new]; rewrite IH; try reflexivity.
    rewrite Nat.add_succ_r. reflexivity.
Qed.

Lemma scheme_after_app h1 : forall h2 i cur, scheme_after (h1 ++ h2) i cur = scheme_after h2 i (scheme_after h1 i cur).
Proof. induction h1 as [|e h1 IH]; intros h2 i cur; [reflexivity|]. destruct e; cbn [app scheme_after]; apply IH. Qed.

Lemma tracks_app h1 h2 w w1 w2 : tracks h1 w w1 -> tracks h2 w1 w2 -> tracks (h1 ++ h2) w w2.
Proof.
  intros (_ & C1 & U1 & L1 & S1) (A2 & C2 & U2 & L2 & S2).
  split; [exact A2|]. split; [congruence|]. split; [|split].
  - rewrite U2, U1, L1. symmetry. apply adopted_after_app.
  - rewrite L2, L1, count_new_app. symmetry. apply Nat.add_assoc.
  - intros i s Hn. destruct (S1 i s Hn) as (s1 & Hn1 & Hs1). destruct (S2 i s1 Hn1) as (s2 & Hn2 & Hs2).
    exists s2. split; [exact Hn2|]. rewrite Hs2, Hs1. symmetry. apply scheme_after_app.
Qed.

Lemma run_inv h : forall w, all_clients w -> tracks h w (run w h).
Proof.
  induction h as [|e h IH]; intros w Hall; [apply tracks_nil, Hall|].
  unfold run. cbn [fold_left]. fold (run (step w e) h).
  pose proof (step_inv w e Hall) as H1.
  apply (tracks_app [e] h w (step w e)); [exact H1 | apply IH, H1].
Qed.

Lemma last_push_wins h i raw f n cur :
  (i < n + count_new h)%nat -> factory_new raw = Some f ->
  adopted_after (h ++ [EvPush i raw]) n cur = Some f.
Proof.
  intros Hi Hf. rewrite adopted_after_app. cbn [adopted_after]. unfold adopted. rewrite Hf.
  destruct (Nat.ltb_spec i (n + count_new h)); [reflexivity | lia].
Qed.

Lemma unparsable_push_keeps h i raw n cur :
  factory_new raw = None -> adopted_after (h ++ [EvPush i raw]) n cur = adopted_after h n cur.
Proof.
  intros Hf. rewrite adopted_after_app. cbn [adopted_after]. unfold adopted. rewrite Hf.
  destruct (i <? n + count_new h)%nat; reflexivity.
Qed.

Lemma default_use_irrelevant h1 h2 n cur :
  adopted_after (h1 ++ EvDefault :: h2) n cur = adopted_after (h1 ++ h2) n cur.
Proof. rewrite !adopted_after_app. reflexivity. Qed.

(* ConcFrame.v -- what the compound operations of Model/Conc.v (finish_w, finish_close, shutdown_tr, enter_close,
   release_ws, feed_ev, push_item, wake_pump_closed, drain, mark_sclosed) leave alone: one relation for the
   global fields of the state, one closure condition for the fields of a task, and one lemma per operation
   for each of the two. *)
From Coq Require Import List NArith Bool.
From AnyTLS Require Import Bytes Cmd Generated Frame Conc.
Import ListNotations.
Arguments push_item : simpl never.
Arguments wake_pump_closed : simpl never.

Lemma upd_same f t v : upd f t v t = v.
Proof. unfold upd. rewrite Nat.eqb_refl. reflexivity. Qed.
Lemma upd_other f t v t' : t' <> t -> upd f t v t' = f t'.
Proof. intros H. unfold upd. destruct (Nat.eqb_spec t' t); [contradiction | reflexivity]. Qed.

(* every field but tasks, wr, waiters, ralive and pump_done is kept; `shut` may be set, by a shutdown attempt
   on a transport that has not stalled *)
Set Implicit Arguments.
Record framed (s s' : state) : Prop := {
  fr_buffering : buffering s' = buffering s;
  fr_pending : pending s' = pending s;
  fr_pkt : pkt s' = pkt s;
  fr_wire : wire s' = wire s;
  fr_closed : closed s' = closed s;
  fr_failing : failing s' = failing s;
  fr_next_sid : next_sid s' = next_sid s;
  fr_table : table s' = table s;
  fr_rtable : rtable s' = rtable s;
  fr_lin : lin s' = lin s;
  fr_dq : dq s' = dq s;
  fr_pushed : pushed s' = pushed s;
  fr_pump_owner : pump_owner s' = pump_owner s;
  fr_stalled : stalled s' = stalled s;
  fr_shut : shut s = true -> shut s' = true;
  fr_shut_stalled : stalled s = true -> shut s' = shut s
}.
Unset Implicit Arguments.

(* for a result built from setters: each field of it computes to the field of the source *)
Ltac fields := constructor; intros; first [reflexivity | assumption].

Lemma framed_refl s : framed s s.
Proof. fields. Qed.

Lemma framed_trans s s1 s2 : framed s s1 -> framed s1 s2 -> framed s s2.
Proof.
  intros A B.
  pose proof (fr_shut A) as S1. pose proof (fr_shut B) as S2.
  pose proof (fr_shut_stalled A) as T1. pose proof (fr_shut_stalled B) as T2.
  destruct A, B. constructor; try congruence.
  - auto.
  - intros H. rewrite T2, T1 by congruence. reflexivity.
Qed.

Lemma framed_set_tasks s ts : framed s (set_tasks s ts).
Proof. fields. Qed.
Lemma framed_set_lock s w ws : framed s (set_lock s w ws).
Proof. fields. Qed.

Lemma framed_finish_w s t k r : framed s (finish_w s t k r).
Proof.
  assert (framed s (set_pump_done (finish s t r))) as D by fields.
  destruct k, r; first [apply framed_set_tasks | exact D].
Qed.

Lemma framed_finish_close s t a k : framed s (finish_close s t a k).
Proof. destruct a; [apply framed_set_tasks | apply framed_finish_w | fields]. Qed.

Lemma tasks_shutdown_tr s : tasks (shutdown_tr s) = tasks s.
Proof. unfold shutdown_tr. destruct (stalled s); reflexivity. Qed.

Lemma framed_shutdown_tr s : framed s (shutdown_tr s).
Proof.
  unfold shutdown_tr. destruct (stalled s) eqn:E; [apply framed_refl|].
  constructor; intros; first [reflexivity | congruence].
Qed.

Lemma framed_release_ws ws : forall s, framed s (release_ws ws s).
Proof.
  induction ws as [|w ws IH]; intros s; cbn [release_ws]; [apply framed_set_lock|].
  destruct (t_pc (tasks s w)); try apply framed_set_lock.
  - fields.
  - eapply framed_trans; [|apply IH].
    eapply framed_trans; [apply framed_shutdown_tr | apply framed_finish_close].
Qed.

Lemma framed_wake s : framed s (wake_pump_closed s).
Proof.
  unfold wake_pump_closed. destruct (closed s); [|apply framed_refl].
  destruct (pump_owner s) as [p|]; [|apply framed_refl].
  destruct (is_ppwait (t_pc (tasks s p))); [fields | apply framed_refl].
Qed.

Lemma framed_drain s s1 : framed s s1 -> framed (drain_state s) (drain_state s1).
Proof.
  intros F. pose proof (fr_shut F). pose proof (fr_shut_stalled F). destruct F.
  constructor; cbn; try congruence; assumption.
Qed.

(* the three operations that touch more are framed from the source with just those fields adjusted, so that
   `rewrite (fr_X (framed_... ))` followed by `cbn` still gives the field X of the source *)
Lemma framed_enter_close s t a k : framed (set_closed s) (enter_close s t a k).
Proof.
  unfold enter_close. destruct (closed s) eqn:E; [|fields].
  apply framed_trans with s; [fields | apply framed_finish_close].
Qed.

Lemma framed_push s t f :
  framed (set_pump s (dq (push_item s t f)) (pushed (push_item s t f)) (pump_owner s) (pump_done s)) (push_item s t f).
Proof.
  unfold push_item. destruct (pump_owner s) as [p|] eqn:Eo; [|fields].
  destruct (is_ppwait (t_pc (tasks s p))); [destruct (closed s)|]; fields.
Qed.
Lemma pushed_push s t f : pushed (push_item s t f) = pushed s ++ [(t, f)].
Proof.
  unfold push_item. destruct (pump_owner s) as [p|]; [|reflexivity].
  destruct (is_ppwait (t_pc (tasks s p))); [destruct (closed s)|]; reflexivity.
Qed.

(* s with the closed flag and the two stream tables of s' *)
Definition with_tables_of (s s' : state) : state :=
  set_rtable (set_table (set_flags s (buffering s) (closed s') (shut s) (failing s) (ralive s)) (next_sid s) (table s'))
             (next_sid s) (rtable s').

Lemma framed_feed s ev : framed (with_tables_of s (feed_ev s ev)) (feed_ev s ev).
Proof.
  unfold feed_ev. destruct (negb (ralive s)); [fields|].
  destruct ev.
  - destruct (lookup_owner (table s) owner); [|fields]. destruct (t_verdict (tasks s owner)); fields.
  - destruct (lookup_owner (rtable s) owner); fields.
  - destruct (lookup_owner (rtable s) owner); fields.
  - destruct (pc_is_idle (t_pc (tasks s rtid))); [|fields].
    unfold enter_close. destruct (closed (mark_state s)); fields.
  - destruct (pc_is_idle (t_pc (tasks s rtid))); [|fields].
    unfold enter_close. destruct (closed s); fields.
  - destruct (pc_is_idle (t_pc (tasks s rtid))); fields.
Qed.

Lemma tasks_finish_close_other s t a k u : u <> t -> tasks (finish_close s t a k) u = tasks s u.
Proof. intros H. destruct a; [| destruct k |]; exact (upd_other _ _ _ _ H). Qed.

(* a relation between the old and the new record of one task that the drain of close(), the Alert marking and
   an incoming frame for the task's stream respect: a verdict once resolved is kept, a closed queue stays closed *)
Set Implicit Arguments.
Record stream_rel (R : task -> task -> Prop) : Prop := {
  sr_refl : forall x, R x x;
  sr_trans : forall x y z, R x y -> R y z -> R x z;
  sr_verdict : forall x v, (t_verdict x <> None -> v = t_verdict x) -> R x (with_verdict x v);
  sr_rq : forall x q c, (t_rclosed x = true -> c = true) -> R x (with_rq x q c);
  sr_sclosed : forall x, R x (with_sclosed x)
}.

(* ... and that the compound operations respect, which also end calls and drop the handle of a failed open *)
Record task_rel (R : task -> task -> Prop) : Prop := {
  tr_refl : forall x, R x x;
  tr_trans : forall x y z, R x y -> R y z -> R x z;
  tr_pc : forall x p, R x (with_pc x p);
  tr_res : forall x r, R x (with_res x r);
  tr_clear : forall x, R x (clear_sid x);
  tr_verdict : forall x v, (t_verdict x <> None -> v = t_verdict x) -> R x (with_verdict x v);
  tr_rq : forall x q c, (t_rclosed x = true -> c = true) -> R x (with_rq x q c);
  tr_sclosed : forall x, R x (with_sclosed x)
}.
Unset Implicit Arguments.

Lemma task_rel_stream {R} : task_rel R -> stream_rel R.
Proof. intros []. constructor; assumption. Qed.

Lemma task_rel_proj A (g : task -> A) :
  (forall x p, g (with_pc x p) = g x) -> (forall x r, g (with_res x r) = g x) -> (forall x, g (clear_sid x) = g x) ->
  (forall x v, g (with_verdict x v) = g x) -> (forall x q c, g (with_rq x q c) = g x) ->
  (forall x, g (with_sclosed x) = g x) -> task_rel (fun x y => g y = g x).
Proof. intros. constructor; intros; congruence. Qed.

Lemma sr_pc : stream_rel (fun x y => t_pc y = t_pc x).
Proof. constructor; cbn; congruence. Qed.
(* the stream handle is kept, or dropped when the task's open failed; a closed queue stays closed *)
Definition stream_kept (x y : task) : Prop :=
  (t_sid y = t_sid x \/ t_sid y = None) /\ (t_rclosed x = true -> t_rclosed y = true).
Lemma tr_stream_kept : task_rel stream_kept.
Proof.
  unfold stream_kept. constructor; cbn; auto.
  intros x y z [[A|A] B] [[C|C] D]; split; auto; try (right; congruence); left; congruence.
Qed.
Lemma tr_prog : task_rel (fun x y => t_prog y = t_prog x).
Proof. apply (task_rel_proj _ t_prog); reflexivity. Qed.
Lemma tr_sub : task_rel (fun x y => t_sub y = t_sub x).
Proof. apply (task_rel_proj _ t_sub); reflexivity. Qed.

Section StreamRel.
Context {R : task -> task -> Prop} (HR : stream_rel R).

Lemma sr_upd ts o v u : R (ts o) v -> R (ts u) (upd ts o v u).
Proof. intros H. unfold upd. destruct (Nat.eqb_spec u o) as [->|_]; [exact H | apply (sr_refl HR)]. Qed.

Lemma sr_drain tb : forall ts u, R (ts u) (drain tb ts u).
Proof.
  induction tb as [|[sid o] tb IH]; intros ts u; cbn [drain]; [apply (sr_refl HR)|].
  eapply (sr_trans HR); [|apply IH]. apply sr_upd.
  eapply (sr_trans HR); [|apply (sr_sclosed HR)].
  eapply (sr_trans HR); [|apply (sr_rq HR); reflexivity].
  apply (sr_verdict HR). destruct (t_verdict (ts o)); [reflexivity | intros N; contradiction].
Qed.

Lemma sr_mark tb : forall ts u, R (ts u) (mark_sclosed tb ts u).
Proof.
  induction tb as [|[sid o] tb IH]; intros ts u; cbn [mark_sclosed]; [apply (sr_refl HR)|].
  eapply (sr_trans HR); [|apply IH]. apply sr_upd, (sr_sclosed HR).
Qed.
End StreamRel.

Section TaskRel.
Context {R : task -> task -> Prop} (HR : task_rel R).

Lemma tr_drain tb ts u : R (ts u) (drain tb ts u).
Proof. apply (sr_drain (task_rel_stream HR)). Qed.
Lemma tr_set_task s t v u : R (tasks s t) v -> R (tasks s u) (tasks (set_task s t v) u).
Proof. apply (sr_upd (task_rel_stream HR)). Qed.
Lemma tr_set_pc s t p u : R (tasks s u) (tasks (set_pc s t p) u).
Proof. apply tr_set_task, (tr_pc HR). Qed.
Lemma tr_finish s t r u : R (tasks s u) (tasks (finish s t r) u).
Proof. apply tr_set_task, (tr_res HR). Qed.

Lemma tr_finish_w s t k r u : R (tasks s u) (tasks (finish_w s t k r) u).
Proof.
  assert (R (tasks s u) (tasks (set_task s t (with_res (clear_sid (tasks s t)) r)) u)) as C.
  { apply tr_set_task. eapply (tr_trans HR); [apply (tr_clear HR) | apply (tr_res HR)]. }
  destruct k, r; first [exact (tr_finish s t _ u) | exact C].
Qed.

Lemma tr_finish_close s t a k u : R (tasks s u) (tasks (finish_close s t a k) u).
Proof. destruct a; [apply tr_finish | apply tr_finish_w | exact (tr_set_pc s t PIdle u)]. Qed.

Lemma tr_enter_close s t a k u : R (tasks s u) (tasks (enter_close s t a k) u).
Proof.
  unfold enter_close. destruct (closed s); [apply tr_finish_close | exact (tr_set_pc (set_closed s) t (PC1 a k) u)].
Qed.

Lemma tr_release_ws ws : forall s u, R (tasks s u) (tasks (release_ws ws s) u).
Proof.
  induction ws as [|w ws IH]; intros s u; cbn [release_ws]; [apply (tr_refl HR)|].
  destruct (t_pc (tasks s w)); try apply (tr_refl HR).
  - exact (tr_set_pc (set_lock s (Some w) ws) w (PW3 k f) u).
  - eapply (tr_trans HR); [|apply IH]. rewrite <- (tasks_shutdown_tr s). apply tr_finish_close.
Qed.

Lemma tr_feed s ev u : R (tasks s u) (tasks (feed_ev s ev) u).
Proof.
  unfold feed_ev. destruct (negb (ralive s)); [apply (tr_refl HR)|].
  destruct ev.
  - destruct (lookup_owner (table s) owner); [|apply (tr_refl HR)].
    destruct (t_verdict (tasks s owner)) eqn:V; [apply (tr_refl HR)|].
    apply tr_set_task, (tr_verdict HR). intros N. rewrite V in N. contradiction.
  - destruct (lookup_owner (rtable s) owner); [|apply (tr_refl HR)].
    apply tr_set_task, (tr_rq HR). intros C. exact C.
  - destruct (lookup_owner (rtable s) owner); [|apply (tr_refl HR)].
    apply (tr_set_task s owner (with_rq (tasks s owner) (t_rq (tasks s owner)) true) u), (tr_rq HR). reflexivity.
  - destruct (pc_is_idle (t_pc (tasks s rtid))); [|apply (tr_refl HR)].
    eapply (tr_trans HR); [apply (sr_mark (task_rel_stream HR) (table s) (tasks s) u) | apply (tr_enter_close (mark_state s))].
  - destruct (pc_is_idle (t_pc (tasks s rtid))); [apply tr_enter_close | apply (tr_refl HR)].
  - destruct (pc_is_idle (t_pc (tasks s rtid))); [apply tr_set_pc | apply (tr_refl HR)].
Qed.

Lemma tr_push s t f u : R (tasks s u) (tasks (push_item s t f) u).
Proof.
  unfold push_item. set (s1 := set_pump s (dq s) (pushed s ++ [(t, f)]) (pump_owner s) (pump_done s)).
  destruct (pump_owner s) as [p|]; [|apply (tr_refl HR)].
  destruct (is_ppwait (t_pc (tasks s p))); [destruct (closed s)|]; try apply (tr_refl HR).
  - exact (tr_finish s1 p ResClosed u).
  - apply (tr_set_task s1 p (with_pc (tasks s p) (PW0 WkPump f)) u), (tr_pc HR).
Qed.

Lemma tr_wake s u : R (tasks s u) (tasks (wake_pump_closed s) u).
Proof.
  unfold wake_pump_closed. destruct (closed s); [|apply (tr_refl HR)].
  destruct (pump_owner s) as [p|]; [|apply (tr_refl HR)].
  destruct (is_ppwait (t_pc (tasks s p))); [exact (tr_finish s p ResClosed u) | apply (tr_refl HR)].
Qed.
End TaskRel.

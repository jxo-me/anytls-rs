(* SessFin.v -- what a received FIN does (after the data, only its own id, nothing retained), and that no
   sending site ever emits a FIN (known finding F1). *)
From Coq Require Import List NArith ZArith Bool.
From AnyTLS Require Import Bytes Cmd Generated Frame Reader Session
  ReaderProofs SessHandle SessRecv SessPipe.
Import ListNotations.
Import Sess.
Open Scope N_scope.

Lemma fin_after_data c st b s gs1 d :
  cfg_ok c -> dead st = false ->
  lookup b (tbl st) = Some s -> rd_open (rd s) -> quiet_for c b gs1 ->
  let st' := fst (handle_all c st (gs1 ++ [mk Fin b d])) in
  lookup b (tbl st') = None /\
  exists sf, only b (gone st') = only b (gone st) ++ [sf] /\
    rclosed (rd sf) = true /\ rd_wf (rd sf) /\ sclosed sf = sclosed s /\
    rd_pending_bytes (rd sf) = rd_pending_bytes (rd s) ++ concat (pushes b gs1) /\
    drains_to (rd sf) (rd_pending_bytes (rd s) ++ concat (pushes b gs1)).
Proof.
  intros Hok Hd Hl Hop Hq. cbv zeta.
  destruct (handle_all_content c st b s gs1 Hok Hd Hl Hq) as (s1 & Hl1 & Hg1 & Hrd1 & Hsc1 & Hd1 & _).
  rewrite handle_all_app. destruct (handle_all c st gs1) as [st1 o1]. cbn [fst handle_all] in *. rewrite Hd1.
  destruct (fin_own c st1 b d) as [Hl2 Hg2]. rewrite Hl1, Hg1 in Hg2.
  destruct (handle c st1 (mk Fin b d)) as [st2 o2]. cbn [fst] in *.
  split; [exact Hl2|]. exists (drop_tx s1). split; [exact Hg2|].
  assert (Hwf1 : rd_wf (rd (drop_tx s1))).
  { apply rd_wf_close. rewrite Hrd1. apply rd_open_wf, rd_open_pushes, Hop. }
  assert (Hp : rd_pending_bytes (rd (drop_tx s1)) = rd_pending_bytes (rd s) ++ concat (pushes b gs1)).
  { change (rd_pending_bytes (rd (drop_tx s1))) with (rd_pending_bytes (rd s1)). rewrite Hrd1. apply rd_pending_pushes. }
  refine (conj eq_refl (conj Hwf1 (conj Hsc1 (conj Hp _)))). rewrite <- Hp. apply closed_drains; [exact Hwf1 | reflexivity].
Qed.

Lemma close_empties st : tbl (fst (close st)) = [] \/ s_closed st = true.
Proof. unfold close. destruct (s_closed st); [right; reflexivity | left; reflexivity]. Qed.

Lemma cleanup c st sid d :
  wf_sess st ->
  lookup sid (tbl (fst (handle c st (mk Fin sid d)))) = None /\
  (s_closed st = false -> tbl (fst (close st)) = []).
Proof.
  intros _. split; [apply fin_own|]. intros Hc. unfold close. rewrite Hc. reflexivity.
Qed.

Lemma set_obj_fields st sid k s :
  s_closed (set_obj st sid k s) = s_closed st /\ sendq (set_obj st sid k s) = sendq st.
Proof.
  unfold set_obj. destruct (Nat.ltb k _); [split; reflexivity|].
  destruct (lookup sid (tbl st)); [|split; reflexivity].
  destruct (Nat.eqb k _); split; reflexivity.
Qed.

Lemma local_eof_silent site st sid k : snd (local_eof site st sid k) = [].
Proof.
  destruct site; cbn [local_eof snd]; try reflexivity.
  unfold stream_shutdown. destruct (obj st sid k); reflexivity.
Qed.

Definition no_fin (os : list out) : Prop :=
  Forall (fun o => match o with Send f => fcmd f <> Fin | _ => True end) os.

Lemma no_fin_app a b : no_fin a -> no_fin b -> no_fin (a ++ b).
Proof. intros; apply Forall_app; split; assumption. Qed.

Lemma write_data_no_fin st sid d : no_fin (fst (write_data st sid d)).
Proof.
  unfold write_data. destruct (s_closed st); cbn [fst]; [constructor|].
  unfold no_fin, data_frames. rewrite map_map. apply Forall_forall. intros o Ho.
  apply in_map_iff in Ho. destruct Ho as (p & <- & _). cbn. discriminate.
Qed.

Lemma open_no_fin st : no_fin (snd (fst (open st))).
Proof.
  unfold open. destruct (s_closed st); cbn [fst snd]; [constructor|].
  constructor; [cbn; discriminate | constructor].
Qed.

Lemma pump_no_fin st : no_fin (snd (pump st)).
Proof.
  unfold pump. destruct (sendq st) as [|[sid d] q]; cbn [snd]; [constructor|].
  destruct (s_closed st) eqn:E; cbn [snd]; [constructor | apply write_data_no_fin].
Qed.

Lemma handle_no_fin c st f : no_fin (snd (handle c st f)).
Proof.
  destruct (alert_dec f) as [Ha|Hna].
  - rewrite (handle_alert c st f Ha). unfold close. destruct (s_closed st); cbn; repeat constructor.
  - pose proof (handle_replies c st f Hna) as Hr.
    rewrite forallb_forall in Hr. apply Forall_forall. intros [g| |] Hx; [|exact I..].
    specialize (Hr _ Hx). intros E. cbn [reply] in Hr. rewrite E in Hr. discriminate.
Qed.

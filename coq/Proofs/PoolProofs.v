(* PoolProofs.v -- facts about Model/Pool.v over arbitrary pool states and arbitrary histories: what
   get_idle_session hands out, what one reaper pass keeps and closes, the well-formedness of the idle map along
   every history (run_ind is the induction over a history), that a quiet pool is reaped down to min_idle
   (surplus_quiet), and the arithmetic of a periodic timer (tick_within_interval). *)
From Coq Require Import List NArith ZArith Bool Lia Sorting.Sorted.
From AnyTLS Require Import Generated Pool.
Import ListNotations.
Open Scope Z_scope.

Lemma get_from_nil : forall closed, pool_get_from closed [] = (None, []).
Proof. reflexivity. Qed.

Lemma get_from_eq : forall closed e r,
  pool_get_from closed (e :: r) =
  if closed (e_sid e) then pool_get_from closed r else (Some (e_sid e), r).
Proof. intros. reflexivity. Qed.

Lemma get_idle_eq : forall closed idle,
  pool_get_idle closed idle = let (o, r) := pool_get_from closed (rev idle) in (o, rev r).
Proof. intros. reflexivity. Qed.

Definition copy_ok (copy : nat) : Prop := (copy = 0 \/ copy = 1)%nat.

Lemma unexpired_eq : forall copy T now since, copy_ok copy ->
  pool_unexpired copy T now since = (Z.max 0 (now - since) <? T).
Proof. intros copy T now since [->| ->]; reflexivity. Qed.

Lemma below_min_eq : forall copy M act, copy_ok copy ->
  pool_below_min copy M act = (Z.of_N act <? Z.of_N M).
Proof. intros copy M act [->| ->]; reflexivity. Qed.

Lemma reap_nil : forall copy T M now closed act, pool_reap copy T M now closed [] act = ([], []).
Proof. reflexivity. Qed.

Lemma reap_cons : forall copy T M now closed e l act, copy_ok copy ->
  pool_reap copy T M now closed (e :: l) act =
  if closed (e_sid e) then pool_reap copy T M now closed l act
  else if (Z.max 0 (now - e_since e) <? T) || (Z.of_N act <? Z.of_N M) then
    let (k, c) := pool_reap copy T M now closed l (act + 1)%N in (e :: k, c)
  else let (k, c) := pool_reap copy T M now closed l act in (k, e_sid e :: c).
Proof.
  intros. cbn [pool_reap]. rewrite unexpired_eq, below_min_eq by assumption.
  destruct (Z.max 0 (now - e_since e) <? T); reflexivity.
Qed.

Lemma reap_pass_eq : forall copy T M now closed l,
  pool_reap_pass copy T M now closed l = pool_reap copy T M now closed l 0%N.
Proof. reflexivity. Qed.

Lemma add_idle_eq : forall closed seq sid now idle,
  pool_add_idle closed seq sid now idle =
  if closed sid then idle else bt_insert {| e_seq := seq; e_sid := sid; e_since := now |} idle.
Proof. reflexivity. Qed.

Global Opaque pool_reap pool_get_from pool_get_idle pool_reap_pass pool_add_idle.

Lemma get_from_spec : forall closed r o r',
  pool_get_from closed r = (o, r') ->
  exists pre, Forall (fun e => closed (e_sid e) = true) pre /\
    match o with
    | Some sid => exists e, r = pre ++ e :: r' /\ e_sid e = sid /\ closed sid = false
    | None => r = pre /\ r' = []
    end.
Proof.
  intros closed r. induction r as [|e r IH]; intros o r' H.
  - rewrite get_from_nil in H. inversion H; subst. exists []. auto.
  - rewrite get_from_eq in H. destruct (closed (e_sid e)) eqn:E.
    + destruct (IH _ _ H) as [pre [Hp Hm]]. exists (e :: pre). split; [constructor; auto|].
      destruct o as [sid|].
      * destruct Hm as [e0 [-> [? ?]]]. exists e0. auto.
      * destruct Hm as [-> ->]. auto.
    + inversion H; subst. exists []. split; [constructor|]. exists e. auto.
Qed.

Lemma get_idle_spec : forall closed idle o l',
  pool_get_idle closed idle = (o, l') ->
  exists dropped, Forall (fun e => closed (e_sid e) = true) dropped /\
    match o with
    | Some sid => exists e, idle = l' ++ e :: dropped /\ e_sid e = sid /\ closed sid = false
    | None => idle = dropped /\ l' = []
    end.
Proof.
  intros closed idle o l' H. rewrite get_idle_eq in H.
  destruct (pool_get_from closed (rev idle)) as [o1 r1] eqn:E. inversion H; subst. clear H.
  destruct (get_from_spec _ _ _ _ E) as [pre [Hp Hm]].
  exists (rev pre). split.
  { apply Forall_forall. intros x Hx. rewrite <- in_rev in Hx. rewrite Forall_forall in Hp. auto. }
  destruct o as [sid|].
  - destruct Hm as [e [Hr [? ?]]]. exists e. split; [|auto].
    rewrite <- (rev_involutive idle), Hr, rev_app_distr. cbn. rewrite <- app_assoc. reflexivity.
  - destruct Hm as [Hr ->]. split; [|reflexivity]. rewrite <- Hr. symmetry. apply rev_involutive.
Qed.

Lemma get_idle_not_closed : forall closed idle sid l',
  pool_get_idle closed idle = (Some sid, l') -> closed sid = false.
Proof.
  intros. destruct (get_idle_spec _ _ _ _ H) as [d [_ [e [_ [_ ?]]]]]. assumption.
Qed.

Lemma get_idle_prefix : forall closed idle o l',
  pool_get_idle closed idle = (o, l') -> exists suf, idle = l' ++ suf.
Proof.
  intros closed idle o l' H. destruct (get_idle_spec _ _ _ _ H) as [d [_ Hm]]. destruct o.
  - destruct Hm as [e [-> _]]. eexists. reflexivity.
  - destruct Hm as [-> ->]. exists d. reflexivity.
Qed.

Lemma get_idle_nil : forall closed, pool_get_idle closed [] = (None, []).
Proof. intros. rewrite get_idle_eq. cbn [rev]. rewrite get_from_nil. reflexivity. Qed.

Lemma get_idle_one : forall closed e,
  closed (e_sid e) = false -> pool_get_idle closed [e] = (Some (e_sid e), []).
Proof. intros closed e H. rewrite get_idle_eq. cbn [rev app]. rewrite get_from_eq, H. reflexivity. Qed.

Definition handed_out (r : poolres) (sid : nat) : Prop :=
  r = QHit sid \/ r = QNew sid \/ r = QGot sid.

Lemma pupd_same : forall A (f : nat -> A) k v, pupd f k v k = v.
Proof. intros. unfold pupd. rewrite Nat.eqb_refl. reflexivity. Qed.

Lemma pupd_other : forall A (f : nat -> A) k v j, j <> k -> pupd f k v j = f j.
Proof. intros. unfold pupd. destruct (Nat.eqb_spec j k); congruence. Qed.

(* every outcome of pool_step with what its tests established; the operation is left free where nothing depends on it
   (a reaper pass of either copy; an operation whose test fails and leaves the pool as it was) *)
Inductive step_case (c : pcfg) (now : Z) (st : pool) : poolop -> pool -> poolres -> Prop :=
| SHit : forall l' e d,
    p_idle st = l' ++ e :: d -> Forall (fun x => p_closed st (e_sid x) = true) d -> p_closed st (e_sid e) = false ->
    step_case c now st PAcq
      {| p_n := p_n st; p_closed := p_closed st; p_seq := p_seq st;
         p_tbl := pupd (p_tbl st) (e_sid e) (p_tbl st (e_sid e) + 1)%N;
         p_busy := pupd (p_busy st) (e_sid e) (p_busy st (e_sid e) + 1)%N;
         p_idle := l'; p_nextseq := p_nextseq st; p_dials := p_dials st;
         p_pending := p_pending st; p_streams := (p_streams st + 1)%N;
         p_peak := N.max (p_peak st) (p_active st + 1); p_hits := (p_hits st + 1)%N |}
      (QHit (e_sid e))
| SMiss :
    Forall (fun x => p_closed st (e_sid x) = true) (p_idle st) ->
    step_case c now st PAcq
      {| p_n := p_n st; p_closed := p_closed st; p_seq := p_seq st; p_tbl := p_tbl st;
         p_busy := p_busy st; p_idle := []; p_nextseq := p_nextseq st; p_dials := (p_dials st + 1)%N;
         p_pending := (p_pending st + 1)%N; p_streams := p_streams st;
         p_peak := N.max (p_peak st) (p_active st + 1); p_hits := p_hits st |}
      QMiss
| SCreate :
    p_pending st <> 0%N ->
    step_case c now st PCreate
      {| p_n := S (p_n st); p_closed := pupd (p_closed st) (p_n st) false;
         p_seq := pupd (p_seq st) (p_n st) (p_nextseq st);
         p_tbl := pupd (p_tbl st) (p_n st) 1%N; p_busy := pupd (p_busy st) (p_n st) 1%N;
         p_idle := bt_insert {| e_seq := p_nextseq st; e_sid := p_n st; e_since := now |} (p_idle st);
         p_nextseq := (p_nextseq st + 1)%N; p_dials := p_dials st;
         p_pending := (p_pending st - 1)%N; p_streams := (p_streams st + 1)%N; p_peak := p_peak st;
         p_hits := p_hits st |}
      (QNew (p_n st))
| SDone : forall sid,
    (0 < p_busy st sid)%N ->
    step_case c now st (PDone sid)
      {| p_n := p_n st; p_closed := p_closed st; p_seq := p_seq st; p_tbl := p_tbl st;
         p_busy := pupd (p_busy st) sid (p_busy st sid - 1)%N;
         p_idle := p_idle st; p_nextseq := p_nextseq st; p_dials := p_dials st;
         p_pending := p_pending st; p_streams := (p_streams st - 1)%N; p_peak := p_peak st;
         p_hits := p_hits st |}
      QUnit
| SDie : forall sid,
    (sid < p_n st)%nat ->
    step_case c now st (PDie sid)
      {| p_n := p_n st; p_closed := pupd (p_closed st) sid true; p_seq := p_seq st;
         p_tbl := pupd (p_tbl st) sid 0%N; p_busy := p_busy st;
         p_idle := p_idle st; p_nextseq := p_nextseq st; p_dials := p_dials st;
         p_pending := p_pending st; p_streams := p_streams st; p_peak := p_peak st;
         p_hits := p_hits st |}
      QUnit
| SReap : forall copy o, copy_ok copy -> step_case c now st o (pool_reap_step copy c now st) QUnit
| SNew : forall seq,
    step_case c now st (PNew seq)
      {| p_n := S (p_n st); p_closed := pupd (p_closed st) (p_n st) false; p_seq := pupd (p_seq st) (p_n st) seq;
         p_tbl := pupd (p_tbl st) (p_n st) 0%N; p_busy := pupd (p_busy st) (p_n st) 0%N;
         p_idle := p_idle st; p_nextseq := p_nextseq st; p_dials := p_dials st;
         p_pending := p_pending st; p_streams := p_streams st; p_peak := p_peak st;
         p_hits := p_hits st |}
      QUnit
| SAdd : forall sid,
    (sid < p_n st)%nat ->
    step_case c now st (PAdd sid)
      (pool_set_idle st (pool_add_idle (p_closed st) (p_seq st sid) sid now (p_idle st))) QUnit
| SGet : forall r l' suf,
    p_idle st = l' ++ suf -> (forall sid, r = Some sid -> p_closed st sid = false) ->
    step_case c now st PGet (pool_set_idle st l') (match r with Some sid => QGot sid | None => QNone end)
| SSkip : forall o r, r = QNone \/ r = QUnit -> step_case c now st o st r.

Lemma step_cases : forall c now st o,
  step_case c now st o (fst (pool_step c now st o)) (snd (pool_step c now st o)).
Proof.
  intros. destruct o; cbn [pool_step].
  - destruct (pool_get_idle (p_closed st) (p_idle st)) as [[s|] l'] eqn:E.
    + destruct (get_idle_spec _ _ _ _ E) as [d [Hd [e [Hi [<- Hl]]]]]. exact (SHit c now st l' e d Hi Hd Hl).
    + destruct (get_idle_spec _ _ _ _ E) as [d [Hd [Hi ->]]]. rewrite <- Hi in Hd. exact (SMiss c now st Hd).
  - destruct (N.eqb_spec (p_pending st) 0) as [|Hp]; [apply SSkip; left; reflexivity|].
    cbn [fst snd]. rewrite add_idle_eq, pupd_same. exact (SCreate c now st Hp).
  - destruct (N.ltb_spec 0 (p_busy st sid)) as [Hb|]; [exact (SDone c now st sid Hb)|apply SSkip; right; reflexivity].
  - destruct (Nat.ltb_spec sid (p_n st)) as [Hlt|]; [exact (SDie c now st sid Hlt)|apply SSkip; right; reflexivity].
  - apply SReap. right. reflexivity.
  - apply SReap. left. reflexivity.
  - apply SNew.
  - destruct (Nat.ltb_spec sid (p_n st)) as [Hlt|]; [exact (SAdd c now st sid Hlt)|apply SSkip; right; reflexivity].
  - destruct (pool_get_idle (p_closed st) (p_idle st)) as [r l'] eqn:E.
    destruct (get_idle_prefix _ _ _ _ E) as [suf Hsuf]. apply (SGet c now st r l' suf Hsuf).
    intros sid ->. exact (get_idle_not_closed _ _ _ _ E).
Qed.

Theorem step_hands_out_open : forall c now st o st' r sid,
  pool_step c now st o = (st', r) -> handed_out r sid -> p_closed st' sid = false.
Proof.
  intros c now st o st' r sid H Hh. pose proof (step_cases c now st o) as V. rewrite H in V. cbn [fst snd] in V.
  (* the result names a session in three cases of the step: a hit, a creation, a get *)
  destruct V as [l' e d _ _ Hl| | | | | | | |[s|] l' suf _ Hr|o0 r0 [->| ->]];
    destruct Hh as [Hh|[Hh|Hh]]; try discriminate Hh.
  - injection Hh as <-. exact Hl.
  - injection Hh as <-. apply pupd_same.
  - injection Hh as <-. exact (Hr s eq_refl).
Qed.

Definition live_cnt (closed : nat -> bool) (l : list pentry) : nat :=
  length (filter (fun e => negb (closed (e_sid e))) l).

Definition expired_cnt (T now : Z) (l : list pentry) : nat :=
  length (filter (fun e => negb (Z.max 0 (now - e_since e) <? T)) l).

Lemma live_cnt_cons : forall closed e l,
  live_cnt closed (e :: l) = ((if closed (e_sid e) then 0 else 1) + live_cnt closed l)%nat.
Proof. intros. unfold live_cnt. cbn. destruct (closed (e_sid e)); reflexivity. Qed.

Lemma expired_cnt_cons : forall T now e l,
  expired_cnt T now (e :: l) =
  ((if (Z.max 0 (now - e_since e) <? T)%Z then 0 else 1) + expired_cnt T now l)%nat.
Proof. intros. unfold expired_cnt. cbn. destruct (Z.max 0 (now - e_since e) <? T); reflexivity. Qed.

Lemma reap_ind : forall copy T M now closed (P : list pentry -> N -> list pentry -> list nat -> Prop),
  copy_ok copy ->
  (forall act, P [] act [] []) ->
  (forall e l act k c, closed (e_sid e) = true -> P l act k c -> P (e :: l) act k c) ->
  (forall e l act k c, closed (e_sid e) = false ->
     (Z.max 0 (now - e_since e) <? T) = true \/ (act < M)%N ->
     P l (act + 1)%N k c -> P (e :: l) act (e :: k) c) ->
  (forall e l act k c, closed (e_sid e) = false ->
     (Z.max 0 (now - e_since e) <? T) = false -> (M <= act)%N ->
     P l act k c -> P (e :: l) act k (e_sid e :: c)) ->
  forall l act k c, pool_reap copy T M now closed l act = (k, c) -> P l act k c.
Proof.
  intros copy T M now closed P Hc P0 P1 P2 P3 l. induction l as [|e l IH]; intros act k c R.
  - rewrite reap_nil in R. injection R as <- <-. apply P0.
  - rewrite reap_cons in R by assumption.
    destruct (closed (e_sid e)) eqn:E; [apply P1; auto|].
    destruct (Z.max 0 (now - e_since e) <? T) eqn:U; cbn [orb] in R;
      [|destruct (Z.ltb_spec (Z.of_N act) (Z.of_N M)) as [B|B]].
    + destruct (pool_reap copy T M now closed l (act + 1)%N) as [k1 c1] eqn:R1. injection R as <- <-. apply P2; auto.
    + destruct (pool_reap copy T M now closed l (act + 1)%N) as [k1 c1] eqn:R1. injection R as <- <-.
      apply P2; auto. right. lia.
    + destruct (pool_reap copy T M now closed l act) as [k1 c1] eqn:R1. injection R as <- <-.
      apply P3; auto. lia.
Qed.

Definition key_lt (a b : pentry) : Prop := (e_seq a < e_seq b)%N.

Section Reap.
  Context {copy : nat} {T : Z} {M : N} {now : Z} {closed : nat -> bool}.
  Context {l : list pentry} {act : N} {k : list pentry} {c : list nat}.
  Context (Hcopy : copy_ok copy) (R : pool_reap copy T M now closed l act = (k, c)).

  (* reap_ind at the pass R of this section; the goal is to be stated of l, act, k and c *)
  Ltac pass_induction := pattern l, act, k, c; eapply reap_ind; [exact Hcopy|..|exact R].

  (* the kept entries are a subsequence of the map *)
  Lemma reap_sub :
    (forall Q : pentry -> Prop, Forall Q l -> Forall Q k) /\ (StronglySorted key_lt l -> StronglySorted key_lt k).
  Proof.
    pass_induction.
    - intros _. split; [intros; constructor|intros; constructor].
    - intros e l0 _ k0 _ _ [IH1 IH2]. split.
      + intros Q HQ. exact (IH1 Q (Forall_inv_tail HQ)).
      + intros Hs. inversion Hs; subst. auto.
    - intros e l0 _ k0 _ _ _ [IH1 IH2]. split.
      + intros Q HQ. constructor; [exact (Forall_inv HQ)|exact (IH1 Q (Forall_inv_tail HQ))].
      + intros Hs. inversion Hs as [|? ? Hs' Hf]; subst. constructor; [exact (IH2 Hs')|exact (IH1 _ Hf)].
    - intros e l0 _ k0 _ _ _ _ [IH1 IH2]. split.
      + intros Q HQ. exact (IH1 Q (Forall_inv_tail HQ)).
      + intros Hs. inversion Hs; subst. auto.
  Qed.

  Lemma reap_sound : forall Q : pentry -> Prop, Forall Q l ->
    Forall (fun e => closed (e_sid e) = false) k /\
    Forall (fun sid => exists e, Q e /\ e_sid e = sid /\ closed sid = false /\
                                 (Z.max 0 (now - e_since e) <? T) = false) c.
  Proof.
    intros Q. pass_induction.
    - intros _ _. split; constructor.
    - intros e l0 _ k0 c0 _ IH HQ. exact (IH (Forall_inv_tail HQ)).
    - intros e l0 _ k0 c0 E _ IH HQ. destruct (IH (Forall_inv_tail HQ)) as [A B].
      split; [constructor|]; assumption.
    - intros e l0 _ k0 c0 E U _ IH HQ. destruct (IH (Forall_inv_tail HQ)) as [A B].
      split; [assumption|]. constructor; [|assumption]. exists e. pose proof (Forall_inv HQ). auto.
  Qed.

  Lemma reap_count : (length k + length c = live_cnt closed l)%nat.
  Proof.
    pass_induction; [reflexivity|..];
      intros e l0 act0 k0 c0 E; intros; rewrite live_cnt_cons, E; cbn [length]; lia.
  Qed.

  Lemma reap_keeps_min : (N.min M (N.of_nat (live_cnt closed l) + act) <= N.of_nat (length k) + act)%N.
  Proof.
    pass_induction; [intros; cbn; lia|..];
      intros e l0 act0 k0 c0 E; intros; rewrite live_cnt_cons, E; cbn [length]; lia.
  Qed.

  Lemma reap_expired_bound : (N.of_nat (expired_cnt T now k) <= M - act)%N.
  Proof.
    pass_induction.
    - intros. cbn. lia.
    - auto.
    - intros e l0 act0 k0 c0 _ U IH. rewrite expired_cnt_cons.
      destruct U as [->|U]; [|destruct (Z.max 0 (now - e_since e) <? T)]; lia.
    - auto.
  Qed.

  Lemma reap_disjoint :
    NoDup (map e_sid l) -> NoDup (map e_sid k ++ c) /\ incl (map e_sid k ++ c) (map e_sid l).
  Proof.
    pass_induction.
    - intros _ _. split; [constructor|apply incl_refl].
    - intros e l0 _ k0 c0 _ IH Hn. inversion Hn; subst. destruct IH as [A B]; [assumption|].
      split; [assumption|apply incl_tl, B].
    - intros e l0 _ k0 c0 _ _ IH Hn. inversion Hn as [|? ? Hni Hn']; subst. destruct (IH Hn') as [A B].
      cbn [map app]. split.
      + constructor; [|assumption]. intro Hin. apply Hni, B, Hin.
      + apply incl_cons; [left; reflexivity|apply incl_tl, B].
    - intros e l0 _ k0 c0 _ _ _ IH Hn. inversion Hn as [|? ? Hni Hn']; subst. destruct (IH Hn') as [A B].
      pose proof (Add_app (e_sid e) (map e_sid k0) c0) as Ad. split.
      + apply (NoDup_Add Ad). split; [assumption|]. intro Hin. apply Hni, B, Hin.
      + intros x Hx. apply (Add_in Ad) in Hx. destruct Hx as [<-|Hx]; [left; reflexivity|right; apply B, Hx].
  Qed.

  Lemma reap_partition : forall e, In e l -> closed (e_sid e) = false -> In e k \/ In (e_sid e) c.
  Proof.
    pass_induction.
    - intros _ e [].
    - intros x l0 _ k0 c0 E IH e [->|Hin] Hl; [congruence|auto].
    - intros x l0 _ k0 c0 _ _ IH e [->|Hin] Hl; [left; left; reflexivity|].
      destruct (IH e Hin Hl); [left; right|right]; assumption.
    - intros x l0 _ k0 c0 _ _ _ IH e [->|Hin] Hl; [right; left; reflexivity|].
      destruct (IH e Hin Hl); [left|right; right]; assumption.
  Qed.
End Reap.

Lemma pmemb_true : forall k l, pmemb k l = true <-> In k l.
Proof.
  intros. unfold pmemb. rewrite existsb_exists. split.
  - intros [x [Hx E]]. apply Nat.eqb_eq in E. subst. assumption.
  - intros H. exists k. split; [assumption|apply Nat.eqb_refl].
Qed.

Lemma pmemb_false : forall k l, pmemb k l = false <-> ~ In k l.
Proof. intros. rewrite <- pmemb_true. destruct (pmemb k l); split; congruence. Qed.

Lemma close_set_true : forall f cl k, pool_close_set f cl k = true <-> f k = true \/ In k cl.
Proof. intros. unfold pool_close_set. rewrite orb_true_iff, pmemb_true. reflexivity. Qed.

Lemma close_set_false : forall f cl k, pool_close_set f cl k = false <-> f k = false /\ ~ In k cl.
Proof. intros. unfold pool_close_set. rewrite orb_false_iff, pmemb_false. reflexivity. Qed.

(* the map is a BTreeMap (strictly ascending keys), an entry's key is its session's seq, sessions exist *)
Record wf (st : pool) : Prop := {
  wf_sorted : StronglySorted key_lt (p_idle st);
  wf_keys : Forall (fun e => e_seq e = p_seq st (e_sid e) /\ (e_sid e < p_n st)%nat) (p_idle st)
}.

Lemma sorted_keys_nodup : forall (f : nat -> N) l,
  StronglySorted key_lt l -> Forall (fun e => e_seq e = f (e_sid e)) l -> NoDup (map e_sid l).
Proof.
  intros f l Hs. induction Hs as [|e l Hs IH Hf]; intros Hk; cbn.
  - constructor.
  - inversion Hk as [|? ? He Hk']; subst. constructor; [|auto].
    intro Hin. apply in_map_iff in Hin. destruct Hin as [e' [Es Hin']].
    rewrite Forall_forall in Hf, Hk'. specialize (Hf _ Hin'). specialize (Hk' _ Hin').
    unfold key_lt in Hf. rewrite He, Hk', Es in Hf. lia.
Qed.

Lemma wf_nodup : forall st, wf st -> NoDup (map e_sid (p_idle st)).
Proof.
  intros st [Hs Hk]. apply sorted_keys_nodup with (f := p_seq st); [assumption|].
  eapply Forall_impl; [|exact Hk]. cbn. intros a [? _]. assumption.
Qed.

Lemma NoDup_app_r : forall A (l1 l2 : list A), NoDup (l1 ++ l2) -> NoDup l2.
Proof.
  intros A l1. induction l1 as [|a l1 IH]; intros l2 H; [exact H|].
  inversion H; subst. auto.
Qed.

Lemma NoDup_app_disj : forall A (l1 l2 : list A) x, NoDup (l1 ++ l2) -> In x l1 -> ~ In x l2.
Proof.
  intros A l1. induction l1 as [|a l1 IH]; intros l2 x Hn Hin Hin2; [contradiction|].
  cbn in Hn. inversion Hn as [|? ? Hna Hn']; subst. destruct Hin as [->|Hin].
  - apply Hna. apply in_or_app. right. assumption.
  - exact (IH _ _ Hn' Hin Hin2).
Qed.

Lemma live_cnt_all : forall closed k,
  Forall (fun e => closed (e_sid e) = false) k -> live_cnt closed k = length k.
Proof.
  intros closed k H. induction H as [|e k He Hk IH]; [reflexivity|].
  rewrite live_cnt_cons, He. cbn. lia.
Qed.

Lemma reap_step_eq : forall copy c now st, exists k cl,
  pool_reap copy (c_timeout c) (c_min c) now (p_closed st) (p_idle st) 0%N = (k, cl) /\
  pool_reap_step copy c now st =
  {| p_n := p_n st; p_closed := pool_close_set (p_closed st) cl; p_seq := p_seq st;
     p_tbl := pool_drain_set (p_tbl st) cl; p_busy := p_busy st;
     p_idle := k; p_nextseq := p_nextseq st; p_dials := p_dials st;
     p_pending := p_pending st; p_streams := p_streams st; p_peak := p_peak st; p_hits := p_hits st |}.
Proof.
  intros. unfold pool_reap_step. rewrite reap_pass_eq.
  destruct (pool_reap copy (c_timeout c) (c_min c) now (p_closed st) (p_idle st) 0%N) as [k cl]. eauto.
Qed.

Lemma all_in : forall A (l : list A), Forall (fun x => In x l) l.
Proof. intros. apply Forall_forall. auto. Qed.

Section Tick.
  Variables (copy : nat) (c : pcfg) (now : Z) (st : pool).
  Hypothesis Hcopy : copy_ok copy.
  Let st' := pool_reap_step copy c now st.

  Lemma tick_kept_live : wf st ->
    Forall (fun e => p_closed st' (e_sid e) = false) (p_idle st').
  Proof.
    intros Hwf. subst st'. destruct (reap_step_eq copy c now st) as [k [cl [R ->]]]. cbn.
    destruct (reap_sound Hcopy R _ (all_in _ _)) as [A _].
    destruct (reap_disjoint Hcopy R (wf_nodup _ Hwf)) as [D _].
    apply Forall_forall. intros e He. rewrite Forall_forall in A.
    apply close_set_false. split; [exact (A _ He)|].
    eapply NoDup_app_disj; [exact D|]. apply in_map. assumption.
  Qed.

  Theorem tick_min_idle : wf st ->
    (N.min (c_min c) (N.of_nat (live_cnt (p_closed st) (p_idle st)))
     <= N.of_nat (live_cnt (p_closed st') (p_idle st')))%N.
  Proof.
    intros Hwf. rewrite (live_cnt_all _ _ (tick_kept_live Hwf)).
    subst st'. destruct (reap_step_eq copy c now st) as [k [cl [R ->]]]. cbn.
    pose proof (reap_keeps_min Hcopy R). lia.
  Qed.

  Theorem tick_expired_bound :
    (N.of_nat (expired_cnt (c_timeout c) now (p_idle st')) <= c_min c)%N.
  Proof.
    subst st'. destruct (reap_step_eq copy c now st) as [k [cl [R ->]]]. cbn [p_idle].
    pose proof (reap_expired_bound Hcopy R). lia.
  Qed.

  Theorem tick_closes_only_idle : forall sid,
    p_closed st sid = false -> p_closed st' sid = true ->
    exists e, In e (p_idle st) /\ e_sid e = sid /\ (Z.max 0 (now - e_since e) <? c_timeout c) = false.
  Proof.
    intros sid H0 H1. subst st'. destruct (reap_step_eq copy c now st) as [k [cl [R E]]]. rewrite E in H1.
    cbn in H1. apply close_set_true in H1. destruct H1 as [H1|H1]; [congruence|].
    destruct (reap_sound Hcopy R _ (all_in _ _)) as [_ B].
    rewrite Forall_forall in B. destruct (B _ H1) as [e [? [? [? ?]]]]. exists e. auto.
  Qed.

  Lemma tick_idle_incl : incl (p_idle st') (p_idle st).
  Proof.
    subst st'. destruct (reap_step_eq copy c now st) as [k [cl [R ->]]]. cbn.
    pose proof (proj1 (reap_sub Hcopy R) _ (all_in _ _)) as F.
    rewrite Forall_forall in F. exact F.
  Qed.

  Lemma wf_reap_step : wf st -> wf st'.
  Proof.
    intros [Hs Hk]. subst st'. destruct (reap_step_eq copy c now st) as [k [cl [R ->]]].
    destruct (reap_sub Hcopy R) as [F S]. constructor; cbn; auto.
  Qed.
End Tick.

Lemma bt_insert_Forall : forall (Q : pentry -> Prop) e l, Q e -> Forall Q l -> Forall Q (bt_insert e l).
Proof.
  intros Q e l He H. induction H as [|y r Hy Hr IH]; cbn.
  - constructor; [assumption|constructor].
  - destruct (e_seq e <? e_seq y)%N; [constructor; [|constructor]; assumption|].
    destruct (e_seq e =? e_seq y)%N; constructor; assumption.
Qed.

Lemma bt_insert_sorted : forall e l, StronglySorted key_lt l -> StronglySorted key_lt (bt_insert e l).
Proof.
  intros e l Hs. induction Hs as [|y r Hs IH Hf]; cbn.
  - constructor; constructor.
  - destruct (N.ltb_spec (e_seq e) (e_seq y)) as [Hlt|Hge].
    + constructor; [constructor; assumption|]. constructor; [exact Hlt|].
      eapply Forall_impl; [|exact Hf]. unfold key_lt. intros a Ha. lia.
    + destruct (N.eqb_spec (e_seq e) (e_seq y)) as [Heq|Hne].
      * constructor; [assumption|]. eapply Forall_impl; [|exact Hf]. unfold key_lt. intros a Ha. lia.
      * constructor; [assumption|]. apply bt_insert_Forall; [|assumption]. unfold key_lt. lia.
Qed.

Lemma sorted_app_l : forall l1 l2, StronglySorted key_lt (l1 ++ l2) -> StronglySorted key_lt l1.
Proof.
  intros l1. induction l1 as [|a l1 IH]; intros l2 H; [constructor|].
  cbn in H. inversion H as [|? ? Hs Hf]; subst. constructor; [eapply IH; eassumption|].
  apply Forall_app in Hf. tauto.
Qed.

Lemma step_idle_acq : forall c now st,
  p_idle (fst (pool_step c now st PAcq)) = snd (pool_get_idle (p_closed st) (p_idle st)).
Proof.
  intros. cbn [pool_step]. destruct (pool_get_idle (p_closed st) (p_idle st)) as [[s|] l']; reflexivity.
Qed.

Lemma wf_step : forall c now st o, wf st -> wf (fst (pool_step c now st o)).
Proof.
  intros c now st o W. pose proof W as [Hs Hk].
  assert (Wg : forall l' suf, p_idle st = l' ++ suf -> wf (pool_set_idle st l')).
  { intros l' suf Hi. rewrite Hi in Hs, Hk. apply sorted_app_l in Hs. apply Forall_app in Hk. constructor; cbn; tauto. }
  (* a new session takes the next id: the entries of the map keep their keys *)
  assert (Hk' : forall x, Forall (fun e => e_seq e = pupd (p_seq st) (p_n st) x (e_sid e) /\ (e_sid e < S (p_n st))%nat)
                            (p_idle st)).
  { intros x. eapply Forall_impl; [|exact Hk]. cbn. intros a [E L]. rewrite pupd_other by lia. split; [assumption|lia]. }
  destruct (step_cases c now st o) as [l' e d Hi _ _| | | | |copy o Hc|seq|sid Hlt|r l' suf Hi _|o r _].
  - destruct (Wg _ _ Hi). constructor; assumption.
  - constructor; constructor.
  - constructor; cbn; [apply bt_insert_sorted, Hs|apply bt_insert_Forall, Hk'].
    cbn. rewrite pupd_same. split; [reflexivity|lia].
  - constructor; assumption.
  - constructor; assumption.
  - apply wf_reap_step; assumption.
  - constructor; [exact Hs|apply Hk'].
  - rewrite add_idle_eq. destruct (p_closed st sid); constructor; cbn; try assumption.
    + apply bt_insert_sorted, Hs.
    + apply bt_insert_Forall; cbn; auto.
  - exact (Wg _ _ Hi).
  - exact W.
Qed.

Lemma wf_init : wf pool_init.
Proof. constructor; cbn; constructor. Qed.

Lemma run_cons : forall c st x h,
  pool_run c st (x :: h) = pool_run c (fst (pool_step c (fst x) st (snd x))) h.
Proof. reflexivity. Qed.

Lemma run_app : forall c st h1 h2, pool_run c st (h1 ++ h2) = pool_run c (pool_run c st h1) h2.
Proof. intros. unfold pool_run. apply fold_left_app. Qed.

Lemma run_ind : forall c (G : Z * poolop -> Prop) (P : pool -> Prop),
  (forall x st, G x -> P st -> P (fst (pool_step c (fst x) st (snd x)))) ->
  forall h st, Forall G h -> P st -> P (pool_run c st h).
Proof.
  intros c G P Hstep h. induction h as [|x h IH]; intros st Hh Hst; [exact Hst|].
  inversion Hh; subst. rewrite run_cons. auto.
Qed.

Lemma wf_run_from : forall c st h, wf st -> wf (pool_run c st h).
Proof.
  intros c st h. revert st. induction h as [|x h IH]; intros st H; [exact H|].
  rewrite run_cons. apply IH, wf_step, H.
Qed.

Theorem wf_run : forall c h, wf (pool_run c pool_init h).
Proof. intros. apply wf_run_from. apply wf_init. Qed.

Definition inserts (o : poolop) : Prop :=
  match o with PCreate => True | PAdd _ => True | _ => False end.

Lemma step_idle_origin : forall c now st o e, In e (p_idle (fst (pool_step c now st o))) ->
  In e (p_idle st) \/ inserts o /\ e_since e = now.
Proof.
  intros c now st o e.
  assert (Hins : forall e0, e_since e0 = now -> In e (bt_insert e0 (p_idle st)) ->
            In e (p_idle st) \/ True /\ e_since e = now).
  { intros e0 H0 He. revert e He. apply Forall_forall, bt_insert_Forall; [auto|]. apply Forall_forall. auto. }
  destruct (step_cases c now st o) as [l' e0 d Hi _ _| | | | |copy o Hc|seq|sid _|r l' suf Hi _|o r _]; cbn; auto.
  - intros He. left. rewrite Hi. apply in_or_app. left. assumption.
  - intros [].
  - apply Hins. reflexivity.
  - intros He. left. exact (tick_idle_incl copy c now st Hc e He).
  - rewrite add_idle_eq. destruct (p_closed st sid); [auto|]. apply Hins. reflexivity.
  - intros He. left. rewrite Hi. apply in_or_app. left. assumption.
Qed.

Lemma step_idle_incl : forall c now st o, ~ inserts o ->
  incl (p_idle (fst (pool_step c now st o))) (p_idle st).
Proof. intros c now st o Hn e He. destruct (step_idle_origin c now st o e He) as [?|[? _]]; [assumption|contradiction]. Qed.

Lemma run_since_bound : forall c t h st,
  Forall (fun x => fst x <= t) h -> Forall (fun e => e_since e <= t) (p_idle st) ->
  Forall (fun e => e_since e <= t) (p_idle (pool_run c st h)).
Proof.
  intros c t h st. apply run_ind with (P := fun s => Forall (fun e => e_since e <= t) (p_idle s)).
  intros x s Hx Hs. apply Forall_forall. intros e He. rewrite Forall_forall in Hs.
  destruct (step_idle_origin c (fst x) s (snd x) e He) as [Hin|[_ ->]]; auto.
Qed.

Lemma run_quiet_incl : forall c h st,
  Forall (fun x => ~ inserts (snd x)) h -> incl (p_idle (pool_run c st h)) (p_idle st).
Proof.
  intros c h st Hh. apply run_ind with (2 := Hh) (P := fun s => incl (p_idle s) (p_idle st)); [|apply incl_refl].
  intros x s Hx I. eapply incl_tran; [apply step_idle_incl, Hx|exact I].
Qed.

Lemma all_expired_cnt : forall T now l,
  Forall (fun e => e_since e + T <= now) l -> expired_cnt T now l = length l.
Proof.
  intros T now l H. induction H as [|e l He Hl IH]; [reflexivity|].
  rewrite expired_cnt_cons, IH. destruct (Z.ltb_spec (Z.max 0 (now - e_since e)) T); [lia|reflexivity].
Qed.

Lemma sorted_sub_nodup_len : forall (l k : list pentry),
  NoDup k -> incl k l -> (length k <= length l)%nat.
Proof. intros. apply NoDup_incl_length; assumption. Qed.

Theorem surplus_quiet : forall copy c h1 h2 h3 t now, copy_ok copy ->
  Forall (fun x => fst x <= t) h1 ->
  Forall (fun x => ~ inserts (snd x)) h2 -> Forall (fun x => ~ inserts (snd x)) h3 ->
  t + c_timeout c <= now ->
  let st := pool_run c pool_init (h1 ++ h2) in
  let st' := pool_run c (pool_reap_step copy c now st) h3 in
  (N.of_nat (length (p_idle st')) <= c_min c)%N.
Proof.
  intros copy c h1 h2 h3 t now Hc H1 H2 H3 Ht st st'.
  assert (B : Forall (fun e => e_since e <= t) (p_idle st)).
  { subst st. rewrite run_app. eapply incl_Forall; [apply run_quiet_incl, H2|].
    apply run_since_bound; [exact H1|constructor]. }
  set (s1 := pool_reap_step copy c now st) in *.
  assert (E1 : (N.of_nat (length (p_idle s1)) <= c_min c)%N).
  { rewrite <- (all_expired_cnt (c_timeout c) now); [apply tick_expired_bound, Hc|].
    eapply Forall_impl; [|exact (incl_Forall (tick_idle_incl copy c now st Hc) B)]. cbn. intros. lia. }
  assert (W : wf st') by (apply wf_run_from, wf_reap_step, wf_run; exact Hc).
  pose proof (NoDup_incl_length (NoDup_map_inv _ _ (wf_nodup _ W)) (run_quiet_incl c h3 s1 H3)). lia.
Qed.

(* a periodic timer fires at the multiples of its interval: one of them lies in [t, t + I) *)
Lemma tick_within_interval : forall I t, 0 < I -> exists k, t <= k * I < t + I.
Proof.
  intros I t HI. exists ((t + I - 1) / I).
  pose proof (Z.div_mod (t + I - 1) I ltac:(lia)) as D.
  pose proof (Z.mod_pos_bound (t + I - 1) I HI) as M. nia.
Qed.

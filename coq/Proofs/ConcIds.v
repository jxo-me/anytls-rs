(* ConcIds.v -- stream ids handed out by open_stream under arbitrary interleaving: the id counter only moves at
   the allocation step of an open (fetch_add), every id a task holds is below the counter, and no two tasks ever
   hold the same id -- for all programs and schedules. Two streams with one id would share an inbound queue: the
   bytes of one would be delivered to the other (C02). *)
From Coq Require Import List NArith ZArith Lia Bool.
From AnyTLS Require Import Bytes Cmd Generated Frame Conc ConcInv ConcDeath.
Import ListNotations.
Open Scope N_scope.

Definition is_po0 (p : pc) : bool := match p with PO0 => true | _ => false end.

Lemma step_next_sid s t s' :
  step s t = Some s' ->
  next_sid s' = if is_po0 (pcof s t) then next_sid s + 1 else next_sid s.
Proof.
  intros H.
  destruct (step_shape_of s t s' H) as [[_ _ _ _ _ _ E|s1 a k B ->|ev rest P _ _ ->|d sid rest P _ _ ->|a k P ->]
                                        |k f P _ ->|q Q _ ->|k f P ->|k held P _ _ ->|k held P _ _ ->].
  - destruct E as [P _ F|? ? P _ _ F|P _ F|P _ _ _ F|? ? ? P _ _ _ _ F|? ? P F|P F|? P F]; rewrite (fr_next_sid F);
      [destruct (pcof s t); try discriminate; reflexivity | rewrite P; reflexivity ..].
  - rewrite (fr_next_sid (framed_enter_close s1 t a k)). cbn. rewrite (fr_next_sid (begun_framed s t a k s1 B)).
    destruct B as [[-> _]|[-> _]]; reflexivity.
  - rewrite (fr_next_sid (framed_feed_step _ t ev)), P. reflexivity.
  - rewrite (fr_next_sid (framed_push_step _ t _)), P. reflexivity.
  - rewrite (fr_next_sid (framed_drain_step s t _)), P. reflexivity.
  - rewrite P. reflexivity.
  - destruct (pcof s t); try contradiction; reflexivity.
  - rewrite P. reflexivity.
  - rewrite (fr_next_sid (framed_write_fail s t _ _ _)), P. reflexivity.
  - rewrite (fr_next_sid (framed_write_ok s t k _ _)), P. reflexivity.
Qed.

Definition ids_ok (s : state) : Prop :=
  (forall t sid, t_sid (tasks s t) = Some sid -> sid < next_sid s) /\
  (forall t1 t2 sid, t_sid (tasks s t1) = Some sid -> t_sid (tasks s t2) = Some sid -> t1 = t2).

Lemma ids_ok_init progs buf pend : ids_ok (init progs buf pend).
Proof. split; intros; discriminate. Qed.

Theorem step_ids_ok s t s' : ids_ok s -> step s t = Some s' -> ids_ok s'.
Proof.
  intros [B D] H. pose proof (step_next_sid s t s' H) as N.
  assert (forall u sid, t_sid (tasks s' u) = Some sid ->
            (t_sid (tasks s u) = Some sid /\ sid < next_sid s') \/ (u = t /\ sid = next_sid s /\ sid < next_sid s')) as From.
  { intros u sid E. destruct (step_sid s t s' u sid H E) as [(-> & P & ->)|(_ & E0)].
    - right. rewrite N, P. cbn. split; [reflexivity | split; [reflexivity | lia]].
    - left. split; [exact E0|]. pose proof (B u sid E0). destruct (is_po0 (pcof s t)); lia. }
  split.
  - intros u sid E. destruct (From u sid E) as [(_ & L)|(_ & _ & L)]; exact L.
  - intros t1 t2 sid E1 E2.
    destruct (From t1 sid E1) as [(A1 & _)|(-> & S1 & _)], (From t2 sid E2) as [(A2 & _)|(-> & S2 & _)]; try reflexivity.
    + exact (D t1 t2 sid A1 A2).
    + pose proof (B t1 sid A1). lia.
    + pose proof (B t2 sid A2). lia.
Qed.

Theorem run_ids_ok progs buf pend sched : ids_ok (run (init progs buf pend) sched).
Proof.
  apply (run_invariant ids_ok); [| apply inv_init | apply ids_ok_init].
  intros s t s' _ I H. eapply step_ids_ok; eauto.
Qed.

Definition keys (tb : list (N * tid)) : list N := map fst tb.

Definition keyed (n : N) (tb : list (N * tid)) : Prop :=
  (forall sid u, In (sid, u) tb -> sid < n) /\ NoDup (keys tb).

Lemma keys_filter f tb k : In k (keys (filter f tb)) -> In k (keys tb).
Proof.
  unfold keys. intros H. apply in_map_iff in H. destruct H as (e & E & Hin). apply filter_In in Hin.
  apply in_map_iff. exists e. split; [exact E | exact (proj1 Hin)].
Qed.

Lemma keyed_filter f n n' tb : keyed n tb -> n <= n' -> keyed n' (filter f tb).
Proof.
  intros [B D] L. split.
  - intros sid u Hin. apply filter_In in Hin. pose proof (B sid u (proj1 Hin)). lia.
  - clear B. induction tb as [|e tb IH]; cbn; [constructor|]. inversion D as [|? ? Ha D']; subst.
    destruct (f e); [|apply IH; exact D']. cbn. constructor; [|apply IH; exact D'].
    intros Hin. apply Ha. exact (keys_filter f tb _ Hin).
Qed.

Lemma keyed_mono n n' tb : keyed n tb -> n <= n' -> keyed n' tb.
Proof. intros [B D] L. split; [intros sid u Hin; pose proof (B sid u Hin); lia | exact D]. Qed.

Lemma keyed_fresh n tb : keyed n tb -> ~ In n (keys tb).
Proof.
  intros [B _] Hin. unfold keys in Hin. apply in_map_iff in Hin. destruct Hin as ([a u] & E & Hin). cbn in E. subst a.
  pose proof (B n u Hin). lia.
Qed.

Lemma keyed_snoc n n' tb sid u : keyed n tb -> n <= n' -> sid < n' -> ~ In sid (keys tb) -> keyed n' (tb ++ [(sid, u)]).
Proof.
  intros [B D] L Ls Hn. split.
  - intros a v Hin. apply in_app_or in Hin. destruct Hin as [Hin|[E|[]]]; [pose proof (B a v Hin); lia | congruence].
  - unfold keys in *. rewrite map_app. cbn [map fst]. clear B. induction tb as [|e tb IH]; cbn; [constructor; [intros [] | constructor]|].
    inversion D as [|? ? Ha D']; subst. constructor.
    + intros Hin. apply in_app_or in Hin. destruct Hin as [Hin|[E|[]]]; [contradiction | apply Hn; left; symmetry; exact E].
    + apply IH; [exact D' | intros Hin; apply Hn; right; exact Hin].
Qed.

Definition tab_ok (s : state) : Prop :=
  keyed (next_sid s) (rtable s) /\ keyed (next_sid s) (table s) /\
  (forall t sid, pcof s t = PO0b sid -> sid < next_sid s /\ ~ In sid (keys (table s))) /\
  (forall t u sid, pcof s t = PO0b sid -> pcof s u = PO0b sid -> t = u).

Lemma tab_ok_init progs buf pend : tab_ok (init progs buf pend).
Proof.
  unfold tab_ok, keyed. cbn [rtable table init keys map].
  repeat split; try (intros; contradiction); try constructor; intros; discriminate.
Qed.

(* only the allocation step leads to PO0b, and it carries the id just allocated *)
Lemma move_to_po0b s t p prog q prog' sid : move s t p prog q prog' -> q = PO0b sid -> p = PO0 /\ sid = next_sid s.
Proof. intros M E. destruct M; try discriminate E. injection E as <-. split; reflexivity. Qed.

Lemma po0b_origin s t s' u sid :
  Inv s -> step s t = Some s' -> pcof s' u = PO0b sid ->
  (u <> t /\ pcof s u = PO0b sid) \/ (u = t /\ pcof s t = PO0 /\ sid = next_sid s).
Proof.
  intros HI H P. destruct (Nat.eq_dec u t) as [->|Hne].
  - right. split; [reflexivity|]. exact (move_to_po0b s t _ _ _ _ sid (step_self s t s' H) P).
  - left. split; [exact Hne|].
    destruct (step_others s t s' HI H u Hne) as [E|k f _ B _|a k _ B _ _|_ _ _ [B|B]|_ _ _ [B|[f B]]];
      try congruence.
Qed.

Lemma step_next_sid_le s t s' : step s t = Some s' -> next_sid s <= next_sid s'.
Proof. intros H. rewrite (step_next_sid s t s' H). destruct (is_po0 (pcof s t)); lia. Qed.

(* the tables change by filtering or by one insert at the end: of the id just allocated into the first, of the id
   the inserting task carries into the second *)
Lemma step_rtable_keyed s t s' :
  step s t = Some s' -> keyed (next_sid s) (rtable s) -> keyed (next_sid s') (rtable s').
Proof.
  intros H K. pose proof (step_next_sid_le s t s' H) as Nle.
  destruct (step_tables s t s' H) as [_ R _|a k _ _ R _|o _ _ [R|[R _]] _|P _ R|x _ _ R]; rewrite R.
  - exact (keyed_mono _ _ _ K Nle).
  - exact (keyed_filter _ _ _ _ K Nle).
  - exact (keyed_filter _ _ _ _ K Nle).
  - exact (keyed_mono _ _ _ K Nle).
  - apply (keyed_snoc _ _ _ _ _ K Nle); [|exact (keyed_fresh _ _ K)].
    rewrite (step_next_sid s t s' H), P. cbn. lia.
  - exact (keyed_mono _ _ _ K Nle).
Qed.

Lemma step_table_keyed s t s' :
  step s t = Some s' -> keyed (next_sid s) (table s) ->
  (forall sid, pcof s t = PO0b sid -> sid < next_sid s /\ ~ In sid (keys (table s))) -> keyed (next_sid s') (table s').
Proof.
  intros H K P1. pose proof (step_next_sid_le s t s' H) as Nle.
  destruct (step_tables s t s' H) as [T _ _|a k _ T _ _|o _ T _ _|_ T _|x P T _]; rewrite T.
  - exact (keyed_mono _ _ _ K Nle).
  - split; [intros ? ? [] | constructor].
  - exact (keyed_filter _ _ _ _ K Nle).
  - exact (keyed_mono _ _ _ K Nle).
  - destruct (P1 x P) as [Lx Fx]. apply (keyed_snoc _ _ _ _ _ K Nle); [lia | exact Fx].
Qed.

Theorem step_tab_ok s t s' : Inv s -> tab_ok s -> step s t = Some s' -> tab_ok s'.
Proof.
  intros HI (KR & KT & P1 & P2) H.
  pose proof (step_next_sid_le s t s' H) as Nle.
  pose proof (fun u sid => po0b_origin s t s' u sid HI H) as From.
  split; [exact (step_rtable_keyed s t s' H KR) | split; [exact (step_table_keyed s t s' H KT (P1 t)) | split]].
  - intros u sid Pu. split.
    + destruct (From u sid Pu) as [(_ & Pa)|(-> & Pa & ->)]; [destruct (P1 u sid Pa); lia|].
      rewrite (step_next_sid s t s' H), Pa. cbn. lia.
    + (* an entry with this id was there before, or is the one the stepper, at PO0b, has just put in *)
      intros Hin. apply in_map_iff in Hin. destruct Hin as ([x v] & E & Hin). cbn in E. subst x.
      destruct (step_table_in s t s' _ H Hin) as [Old|(x & Pt & E)].
      * apply (in_map fst) in Old.
        destruct (From u sid Pu) as [(_ & Pa)|(-> & Pa & ->)]; [exact (proj2 (P1 u sid Pa) Old) | exact (keyed_fresh _ _ KT Old)].
      * injection E as <- ->. destruct (From u sid Pu) as [(Nu & Pa)|(_ & Pa & _)]; [exact (Nu (P2 u t sid Pa Pt)) | congruence].
  - intros a b sid Ha Hb.
    destruct (From a sid Ha) as [(Na & Pa)|(-> & Pa & Ea)], (From b sid Hb) as [(Nb & Pb)|(-> & Pb & Eb)]; try reflexivity.
    + exact (P2 a b sid Pa Pb).
    + exfalso. destruct (P1 a sid Pa) as [L _]. lia.
    + exfalso. destruct (P1 b sid Pb) as [L _]. lia.
Qed.

Theorem run_tab_ok progs buf pend sched : tab_ok (run (init progs buf pend) sched).
Proof.
  apply (run_invariant tab_ok); [| apply inv_init | apply tab_ok_init].
  intros s t s' HI I H. eapply step_tab_ok; eauto.
Qed.

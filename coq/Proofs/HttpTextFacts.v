(* HttpTextFacts.v -- lemmas about the text functions of Model/HttpText.v (package http, C17). *)
From Coq Require Import List NArith ZArith Lia Bool.
From AnyTLS Require Import Bytes BytesFacts HttpText.
Import ListNotations.
Open Scope N_scope.

Definition nof (f : N -> bool) (s : bytes) : bool := forallb (fun c => negb (f c)) s.

Lemma nof_app f a b : nof f (a ++ b) = nof f a && nof f b.
Proof. apply forallb_app. Qed.

Lemma nof_cons f x a : nof f (x :: a) = negb (f x) && nof f a.
Proof. reflexivity. Qed.

Lemma nof_cons_true f x a : nof f (x :: a) = true <-> f x = false /\ nof f a = true.
Proof. now rewrite nof_cons, andb_true_iff, negb_true_iff. Qed.

Lemma nof_repeat f x n : f x = false -> nof f (repeat x n) = true.
Proof. intros H. induction n as [|n IH]; [reflexivity|]. cbn [repeat]. now rewrite nof_cons, H. Qed.

Lemma dropN_0 {A} (l : list A) : dropN 0 l = l.
Proof. exact (BytesFacts.dropN_0 l). Qed.

Lemma h_nil_false_iff {A} (l : list A) : h_nil l = false <-> l <> [].
Proof. destruct l; cbn; split; congruence. Qed.

Lemma h_nil_app {A} (a b : list A) : h_nil (a ++ b) = h_nil a && h_nil b.
Proof. destruct a; reflexivity. Qed.

Lemma sw_refl_app p r : h_starts_with p (p ++ r) = true.
Proof. induction p as [|x p IH]; [reflexivity|]. cbn. now rewrite N.eqb_refl, IH. Qed.

Lemma sw_len p a : h_starts_with p a = true -> lenN p <= lenN a.
Proof.
  revert a. induction p as [|x p IH]; intros a H; [unfold lenN; cbn [length]; lia|].
  destruct a as [|y a]; [discriminate|]. cbn in H. apply andb_true_iff in H.
  rewrite !lenN_cons. specialize (IH a (proj2 H)). lia.
Qed.

Lemma sw_app_le p a b : lenN p <= lenN a -> h_starts_with p (a ++ b) = h_starts_with p a.
Proof.
  revert a. induction p as [|x p IH]; intros a L; [reflexivity|].
  destruct a as [|y a]; [rewrite lenN_cons, lenN_nil in L; lia|].
  cbn. rewrite IH; [reflexivity|]. rewrite !lenN_cons in L. lia.
Qed.

Lemma sw_split p s : h_starts_with p s = true -> s = p ++ dropN (lenN p) s.
Proof.
  revert s. induction p as [|x p IH]; intros s H; [reflexivity|].
  destruct s as [|y s]; [discriminate|]. cbn in H. apply andb_true_iff in H. destruct H as [H1 H2].
  apply N.eqb_eq in H1. subst y. rewrite lenN_cons, N.add_1_l, dropN_succ. cbn [app]. f_equal. apply IH, H2.
Qed.

Lemma h_find_unfold p x s :
  h_find p (x :: s) = if h_starts_with p (x :: s) then Some 0
                      else match h_find p s with Some i => Some (N.succ i) | None => None end.
Proof. reflexivity. Qed.

(* what appending b does to the search: a match inside a stays the answer; without one, any match in a ++ b
   runs past the end of a *)
Lemma h_find_app_spec p a b :
  match h_find p a with
  | Some i => i + lenN p <= lenN a /\ h_find p (a ++ b) = Some i
  | None => forall i, h_find p (a ++ b) = Some i -> lenN a < i + lenN p
  end.
Proof.
  induction a as [|x a IH].
  - destruct p as [|y p]; cbn [h_find h_starts_with app].
    + split; [reflexivity|now destruct b].
    + intros i _. rewrite lenN_cons, lenN_nil. lia.
  - rewrite <- app_comm_cons, !h_find_unfold, app_comm_cons. destruct (h_starts_with p (x :: a)) eqn:E.
    + pose proof (sw_len _ _ E) as L. rewrite sw_app_le, E by exact L. split; [lia|reflexivity].
    + destruct (h_find p a) as [j|].
      * destruct IH as [L ->]. rewrite sw_app_le, E by (rewrite lenN_cons; lia).
        rewrite lenN_cons. split; [lia|reflexivity].
      * intros i. destruct (h_starts_with p ((x :: a) ++ b)) eqn:E2.
        -- intros [= <-]. destruct (N.lt_ge_cases (lenN (x :: a)) (lenN p)) as [L|L]; [lia|].
           rewrite sw_app_le in E2 by exact L. congruence.
        -- destruct (h_find p (a ++ b)) as [j|]; [|discriminate]. intros [= <-].
           specialize (IH j eq_refl). rewrite lenN_cons. lia.
Qed.

Lemma h_find_bound p a i : h_find p a = Some i -> i + lenN p <= lenN a.
Proof. intros H. pose proof (h_find_app_spec p a []) as S. rewrite H in S. apply S. Qed.

Lemma h_find_app p a b i : h_find p a = Some i -> h_find p (a ++ b) = Some i.
Proof. intros H. pose proof (h_find_app_spec p a b) as S. rewrite H in S. apply S. Qed.

Lemma h_find_app_inv p a b i :
  h_find p (a ++ b) = Some i -> i + lenN p <= lenN a -> h_find p a = Some i.
Proof.
  intros H L. pose proof (h_find_app_spec p a b) as S. destruct (h_find p a) as [j|].
  - destruct S as [_ S]. congruence.
  - specialize (S i H). lia.
Qed.

Lemma h_find_none_prefix p a b : h_find p (a ++ b) = None -> h_find p a = None.
Proof.
  intros H. destruct (h_find p a) as [i|] eqn:E; [|reflexivity].
  now rewrite (h_find_app _ _ b _ E) in H.
Qed.

Lemma h_find_occ p s i : h_find p s = Some i -> s = takeN i s ++ p ++ dropN (i + lenN p) s.
Proof.
  revert i. induction s as [|x s IH]; intros i H.
  - cbn in H. destruct (h_starts_with p []) eqn:E; [|discriminate]. inversion H; subst.
    destruct p; [reflexivity|discriminate].
  - rewrite h_find_unfold in H. destruct (h_starts_with p (x :: s)) eqn:E.
    + inversion H; subst. rewrite takeN_0, N.add_0_l. cbn [app]. apply sw_split, E.
    + destruct (h_find p s) as [j|] eqn:F; [|discriminate]. inversion H; subst.
      rewrite takeN_succ. replace (N.succ j + lenN p) with (N.succ (j + lenN p)) by lia.
      rewrite dropN_succ. cbn [app]. f_equal. apply IH. reflexivity.
Qed.

Lemma h_find_first_occ p pre post : exists i, h_find p (pre ++ p ++ post) = Some i /\ i <= lenN pre.
Proof.
  induction pre as [|x pre IH].
  - exists 0. cbn [app]. split; [|cbn; lia].
    destruct (p ++ post) eqn:E.
    + destruct p; [reflexivity|discriminate].
    + rewrite h_find_unfold, <- E, sw_refl_app. reflexivity.
  - destruct IH as (i & Hi & Li). cbn [app]. rewrite h_find_unfold.
    destruct (h_starts_with p (x :: pre ++ p ++ post)).
    + exists 0. split; [reflexivity|lia].
    + exists (N.succ i). rewrite Hi. split; [reflexivity|]. rewrite lenN_cons. lia.
Qed.

Lemma h_find_first c p pre rest :
  nof (fun x => x =? c) pre = true -> h_find (c :: p) (pre ++ c :: p ++ rest) = Some (lenN pre).
Proof.
  induction pre as [|x pre IH]; intros H.
  - cbn [app]. rewrite h_find_unfold.
    change (c :: p ++ rest) with ((c :: p) ++ rest). now rewrite sw_refl_app.
  - apply nof_cons_true in H. destruct H as [H1 H2].
    cbn [app]. rewrite h_find_unfold. cbn [h_starts_with]. rewrite N.eqb_sym, H1. cbn [andb].
    rewrite (IH H2), lenN_cons, N.add_1_l. reflexivity.
Qed.

(* no occurrence of p begins in a, not even one that runs on into s *)
Lemma h_find_skip p a : forall s, h_find p (a ++ takeN (lenN p - 1) s) = None ->
  h_find p (a ++ s) = option_map (N.add (lenN a)) (h_find p s).
Proof.
  induction a as [|x a IH]; intros s H; cbn [app] in *; [now destruct (h_find p s)|].
  rewrite h_find_unfold in *.
  destruct (h_starts_with p (x :: a ++ takeN _ s)) eqn:E; [discriminate|].
  destruct (h_find p (a ++ takeN _ s)) eqn:F; [discriminate|]. rewrite (IH _ F).
  destruct (h_starts_with p (x :: a ++ s)) eqn:E2.
  - pose proof (sw_len _ _ E2) as L. rewrite <- (takeN_dropN (lenN p - 1) s), app_assoc, app_comm_cons in E2.
    rewrite sw_app_le in E2; [congruence|]. rewrite lenN_cons, lenN_app in *. rewrite lenN_takeN_min. lia.
  - destruct (h_find p s); [|reflexivity]. cbn [option_map]. f_equal. rewrite lenN_cons. lia.
Qed.

Lemma h_find_if_first f pre x rest :
  nof f pre = true -> f x = true -> h_find_if f (pre ++ x :: rest) = Some (lenN pre).
Proof.
  induction pre as [|y pre IH]; intros H Hx.
  - cbn. now rewrite Hx.
  - apply nof_cons_true in H. destruct H as [H1 H2].
    cbn [app h_find_if]. rewrite H1, (IH H2 Hx), lenN_cons, N.add_1_l. reflexivity.
Qed.

Lemma h_find_if_none f s : nof f s = true -> h_find_if f s = None.
Proof.
  induction s as [|y s IH]; intros H; [reflexivity|].
  apply nof_cons_true in H. destruct H as [H1 H2]. cbn. now rewrite H1, (IH H2).
Qed.

Lemma contains_nof c s : h_contains_byte c s = negb (nof (fun x => x =? c) s).
Proof.
  unfold h_contains_byte, nof. induction s as [|x s IH]; [reflexivity|].
  cbn. rewrite IH. destruct (x =? c); reflexivity.
Qed.

Lemma contains_app c a b : h_contains_byte c (a ++ b) = h_contains_byte c a || h_contains_byte c b.
Proof. apply existsb_app. Qed.

Lemma h_rfind_none c s : nof (fun x => x =? c) s = true -> h_rfind_byte c s = None.
Proof.
  induction s as [|x s IH]; intros H; [reflexivity|].
  apply nof_cons_true in H. destruct H as [H1 H2]. cbn. now rewrite (IH H2), H1.
Qed.

Lemma h_rfind_last c a b :
  nof (fun x => x =? c) b = true -> h_rfind_byte c (a ++ c :: b) = Some (lenN a).
Proof.
  intros H. induction a as [|x a IH].
  - cbn. now rewrite (h_rfind_none _ _ H), N.eqb_refl.
  - cbn [app h_rfind_byte]. now rewrite IH, lenN_cons, N.add_1_l.
Qed.

Lemma contains_split_last c s :
  h_contains_byte c s = true -> exists a b, s = a ++ c :: b /\ nof (fun x => x =? c) b = true.
Proof.
  induction s as [|x s IH]; intros H; [discriminate|].
  destruct (h_contains_byte c s) eqn:E.
  - destruct (IH eq_refl) as (a & b & -> & Hb). exists (x :: a), b. split; [reflexivity|exact Hb].
  - cbn in H. unfold h_contains_byte in E. rewrite E, orb_false_r in H. apply N.eqb_eq in H. subst x.
    exists [], s. split; [reflexivity|]. fold (h_contains_byte c s) in E. rewrite contains_nof in E.
    now apply negb_false_iff in E.
Qed.

Definition no_cr (l : bytes) : bool := nof (fun c => c =? 13) l.

Lemma h_split_crlf_unfold x y s :
  h_split_crlf (x :: y :: s) =
  if (x =? 13) && (y =? 10) then [] :: h_split_crlf s
  else match h_split_crlf (y :: s) with l :: ls => (x :: l) :: ls | [] => [[x]] end.
Proof. reflexivity. Qed.

Lemma split_crlf_line l rest : no_cr l = true -> h_split_crlf (l ++ 13 :: 10 :: rest) = l :: h_split_crlf rest.
Proof.
  induction l as [|x l IH]; intros H.
  - cbn [app]. rewrite h_split_crlf_unfold. reflexivity.
  - apply nof_cons_true in H. destruct H as [H1 H2]. specialize (IH H2).
    destruct l as [|y l].
    + cbn [app] in *. rewrite h_split_crlf_unfold. rewrite IH.
      replace ((x =? 13) && (13 =? 10)) with false by (now rewrite H1). reflexivity.
    + cbn [app] in *. rewrite h_split_crlf_unfold, H1. cbn [andb]. now rewrite IH.
Qed.

Definition no_ws (l : bytes) : bool := nof h_is_ws l.

Lemma ws_aux_tok t s : no_ws t = true -> h_ws_aux (t ++ s) = (t ++ fst (h_ws_aux s), snd (h_ws_aux s)).
Proof.
  induction t as [|x t IH]; intros H.
  - cbn [app]. now destruct (h_ws_aux s).
  - apply nof_cons_true in H. destruct H as [H1 H2]. cbn [app h_ws_aux]. rewrite (IH H2), H1. reflexivity.
Qed.

Lemma ws_aux_ws x s : h_is_ws x = true ->
  h_ws_aux (x :: s) = ([], h_split_whitespace s).
Proof.
  intros H. cbn [h_ws_aux]. unfold h_split_whitespace. destruct (h_ws_aux s) as [t ts]. now rewrite H.
Qed.

Lemma split_ws_tok t x s : no_ws t = true -> t <> [] -> h_is_ws x = true ->
  h_split_whitespace (t ++ x :: s) = t :: h_split_whitespace s.
Proof.
  intros H Ht Hx. unfold h_split_whitespace at 1. rewrite (ws_aux_tok _ _ H), (ws_aux_ws _ _ Hx).
  cbn [fst snd]. rewrite app_nil_r. destruct t; [congruence|reflexivity].
Qed.

Lemma split_ws_last t : no_ws t = true -> t <> [] -> h_split_whitespace t = [t].
Proof.
  intros H Ht. unfold h_split_whitespace. rewrite <- (app_nil_r t) at 1. rewrite (ws_aux_tok _ _ H).
  cbn. rewrite app_nil_r. destruct t; [congruence|reflexivity].
Qed.

Lemma trim_start_strip f pre s : forallb f pre = true -> h_trim_start_by f (pre ++ s) = h_trim_start_by f s.
Proof.
  induction pre as [|x pre IH]; intros H; [reflexivity|].
  cbn in H. apply andb_true_iff in H. destruct H as [H1 H2]. cbn [app h_trim_start_by]. now rewrite H1, IH.
Qed.

Lemma trim_start_keep_app f s t : nof f s = true -> s <> [] -> h_trim_start_by f (s ++ t) = s ++ t.
Proof.
  destruct s as [|x s]; intros H Hs; [congruence|].
  apply nof_cons_true in H. destruct H as [H1 _]. cbn. now rewrite H1.
Qed.

Lemma trim_start_keep f s : nof f s = true -> h_trim_start_by f s = s.
Proof.
  destruct s as [|x s]; intros H; [reflexivity|].
  rewrite <- (app_nil_r (x :: s)). now apply trim_start_keep_app.
Qed.

Lemma trim_by_strip f pre s post :
  forallb f pre = true -> forallb f post = true -> nof f s = true -> h_trim_by f (pre ++ s ++ post) = s.
Proof.
  intros Hpre Hpost Hs. unfold h_trim_by, h_trim_end_by.
  rewrite (trim_start_strip _ _ _ Hpre).
  destruct s as [|x s].
  - cbn [app]. rewrite <- (app_nil_r post), (trim_start_strip _ _ _ Hpost). reflexivity.
  - rewrite (trim_start_keep_app _ _ _ Hs) by discriminate.
    rewrite rev_app_distr, trim_start_strip by (now rewrite forallb_rev).
    rewrite trim_start_keep; [apply rev_involutive|].
    unfold nof. now rewrite forallb_rev.
Qed.

Lemma trim_by_keep f s : nof f s = true -> h_trim_by f s = s.
Proof.
  intros H. rewrite <- (trim_by_strip f [] s [] eq_refl eq_refl H) at 2. now rewrite app_nil_r.
Qed.

Lemma to_lower_app a b : h_to_lower (a ++ b) = h_to_lower a ++ h_to_lower b.
Proof. apply map_app. Qed.

Lemma h_lower_idem_noupper c : (c <? 65) || (90 <? c) = true -> h_lower c = c.
Proof.
  intros H. unfold h_lower. apply orb_true_iff in H.
  destruct (N.leb_spec 65 c), (N.leb_spec c 90); cbn; try reflexivity.
  destruct H as [H|H]; [apply N.ltb_lt in H | apply N.ltb_lt in H]; lia.
Qed.

Definition digitsb (ds : list N) : bool := forallb (fun d => d <? 10) ds.

Lemma h_digit_of d : d < 10 -> h_digit (48 + d) = Some d.
Proof.
  intros H. unfold h_digit.
  destruct (N.leb_spec 48 (48 + d)); [|lia]. destruct (N.leb_spec (48 + d) 57); [|lia].
  cbn [andb]. f_equal. lia.
Qed.

Lemma fold_digits_ge ds acc : acc <= fold_left (fun a d => a * 10 + d) ds acc.
Proof.
  revert acc. induction ds as [|d ds IH]; intros acc; cbn [fold_left]; [lia|].
  specialize (IH (acc * 10 + d)). lia.
Qed.

Lemma parse_digits_ok lim ds acc :
  digitsb ds = true -> fold_left (fun a d => a * 10 + d) ds acc <= lim ->
  h_parse_digits lim acc (map (fun d => 48 + d) ds) = Some (fold_left (fun a d => a * 10 + d) ds acc).
Proof.
  revert acc. induction ds as [|d ds IH]; intros acc Hd Hl; [reflexivity|].
  cbn in Hd. apply andb_true_iff in Hd. destruct Hd as [H1 H2]. apply N.ltb_lt in H1.
  cbn [map h_parse_digits fold_left] in *. rewrite (h_digit_of _ H1).
  pose proof (fold_digits_ge ds (acc * 10 + d)).
  destruct (N.leb_spec (acc * 10 + d) lim); [|lia]. now apply IH.
Qed.

Lemma parse_uint_digits lim d ds :
  digitsb (d :: ds) = true -> fold_left (fun a x => a * 10 + x) (d :: ds) 0 <= lim ->
  h_parse_uint lim (map (fun x => 48 + x) (d :: ds)) = Some (fold_left (fun a x => a * 10 + x) (d :: ds) 0).
Proof.
  intros Hd Hl. unfold h_parse_uint. cbn [map].
  destruct (N.eqb_spec (48 + d) 43) as [E|_]; [lia|].
  cbn [h_nil]. change (48 + d :: map (fun x => 48 + x) ds) with (map (fun x => 48 + x) (d :: ds)).
  now apply parse_digits_ok.
Qed.

Lemma parse_digits_bad lim acc s x : h_digit x = None -> h_parse_digits lim acc (s ++ [x]) = None.
Proof.
  intros Hx. revert acc. induction s as [|c s IH]; intros acc.
  - cbn. now rewrite Hx.
  - cbn [app h_parse_digits]. destruct (h_digit c); [|reflexivity].
    destruct (_ <=? lim); [apply IH|reflexivity].
Qed.

Lemma parse_uint_bad_last lim s x : h_digit x = None -> x <> 43 -> h_parse_uint lim (s ++ [x]) = None.
Proof.
  intros Hx Hne. unfold h_parse_uint. destruct s as [|c s].
  - cbn [app]. destruct (N.eqb_spec x 43); [congruence|]. cbn. now rewrite Hx.
  - cbn [app]. destruct (c =? 43).
    + destruct s as [|c' s]; cbn [app h_nil]; [cbn; now rewrite Hx|].
      change (c' :: s ++ [x]) with ((c' :: s) ++ [x]). now apply parse_digits_bad.
    + cbn [h_nil]. change (c :: s ++ [x]) with ((c :: s) ++ [x]). now apply parse_digits_bad.
Qed.

Lemma h_dec_fuel_digits k n acc :
  forallb (fun c => (48 <=? c) && (c <=? 57)) acc = true ->
  forallb (fun c => (48 <=? c) && (c <=? 57)) (h_dec_fuel k n acc) = true.
Proof.
  revert n acc. induction k as [|k IH]; intros n acc H; [exact H|].
  cbn [h_dec_fuel].
  assert (Hd : forallb (fun c => (48 <=? c) && (c <=? 57)) ((48 + n mod 10) :: acc) = true).
  { cbn [forallb]. rewrite H, andb_true_r.
    destruct (N.leb_spec 48 (48 + n mod 10)); [|lia_div].
    destruct (N.leb_spec (48 + n mod 10) 57); [reflexivity|]. lia_div. }
  destruct (n / 10 =? 0); [exact Hd | now apply IH].
Qed.

Lemma h_dec_digits n : forallb (fun c => (48 <=? c) && (c <=? 57)) (h_dec n) = true.
Proof. unfold h_dec. now apply h_dec_fuel_digits. Qed.

Lemma h_dec_digits_text n : map (fun d => 48 + d) (map (fun c => c - 48) (h_dec n)) = h_dec n.
Proof.
  pose proof (h_dec_digits n) as H. induction (h_dec n) as [|c l IH]; [reflexivity|].
  cbn in H. apply andb_true_iff in H. destruct H as [H1 H2]. apply andb_true_iff in H1. destruct H1 as [H1 _].
  apply N.leb_le in H1. cbn [map]. rewrite (IH H2). f_equal. lia.
Qed.

Lemma h_dec_digits_lt10 n : forallb (fun d => d <? 10) (map (fun c => c - 48) (h_dec n)) = true.
Proof.
  pose proof (h_dec_digits n) as H. rewrite forallb_forall in *. intros d Hd.
  apply in_map_iff in Hd. destruct Hd as (c & <- & Hc). apply H, andb_true_iff in Hc.
  destruct Hc as [_ Hc]. apply N.leb_le in Hc. apply N.ltb_lt. lia.
Qed.

Lemma h_dec_fuel_S k n acc :
  h_dec_fuel (S k) n acc =
  if n / 10 =? 0 then (48 + n mod 10) :: acc else h_dec_fuel k (n / 10) ((48 + n mod 10) :: acc).
Proof. reflexivity. Qed.

Lemma h_dec_fuel_nonempty k : forall n acc, h_dec_fuel (S k) n acc <> [].
Proof.
  induction k as [|k IH]; intros n acc; rewrite h_dec_fuel_S; destruct (n / 10 =? 0); try discriminate. apply IH.
Qed.

Lemma h_dec_nonempty n : h_dec n <> [].
Proof. apply h_dec_fuel_nonempty. Qed.

Lemma size_nat_gt n : n < 2 ^ N.of_nat (N.size_nat n).
Proof.
  destruct n as [|p]; [reflexivity|]. cbn [N.size_nat].
  induction p as [p IH|p IH|]; cbn [Pos.size_nat]; [| |reflexivity];
    rewrite Nat2N.inj_succ, N.pow_succ_r'; lia.
Qed.

(* Display is exact for every n: one more unit of fuel than n has binary digits prints all its decimal digits,
   and read back in base 10 they give n. *)
Lemma h_dec_fuel_value k : forall n acc, n < 2 ^ N.of_nat k ->
  fold_left (fun a d => a * 10 + d) (map (fun c => c - 48) (h_dec_fuel (S k) n acc)) 0
  = fold_left (fun a d => a * 10 + d) (map (fun c => c - 48) acc) n.
Proof.
  induction k as [|k IH]; intros n acc H; rewrite h_dec_fuel_S.
  - assert (n = 0) as -> by (cbn in H; lia). reflexivity.
  - rewrite Nat2N.inj_succ, N.pow_succ_r' in H. destruct (N.eqb_spec (n / 10) 0) as [E|E].
    + cbn [map fold_left]. f_equal. lia_div.
    + rewrite IH by lia_div. cbn [map fold_left]. f_equal. lia_div.
Qed.

Lemma h_dec_value n : fold_left (fun a d => a * 10 + d) (map (fun c => c - 48) (h_dec n)) 0 = n.
Proof. unfold h_dec. rewrite h_dec_fuel_value by apply size_nat_gt. reflexivity. Qed.

(* BytesFacts.v -- arithmetic and list lemmas shared by all proofs. *)
From Coq Require Import List NArith ZArith Lia Bool.
From AnyTLS Require Import Bytes.
Import ListNotations.
Open Scope N_scope.

Lemma digit_div a b : b < 256 -> (a * 256 + b) / 256 = a.
Proof. intros H. rewrite N.div_add_l, N.div_small, N.add_0_r by (exact H || discriminate). reflexivity. Qed.

Lemma digit_mod a b : b < 256 -> (a * 256 + b) mod 256 = b.
Proof. intros H. rewrite N.add_comm, N.mod_add by discriminate. apply N.mod_small, H. Qed.

Lemma digits_join n : n / 256 * 256 + n mod 256 = n.
Proof. rewrite N.mul_comm. symmetry. apply N.div_mod'. Qed.

Lemma be16_de16 a b : a < 256 -> b < 256 -> be16 (de16 a b) = [a; b].
Proof.
  intros Ha Hb. unfold be16, de16.
  rewrite digit_div, digit_mod by exact Hb. rewrite (N.mod_small a) by exact Ha. reflexivity.
Qed.

Lemma de16_be16 n : n < 65536 -> de16 ((n / 256) mod 256) (n mod 256) = n.
Proof.
  intros H. unfold de16. rewrite (N.mod_small (n / 256)).
  - apply digits_join.
  - apply N.div_lt_upper_bound; [discriminate | exact H].
Qed.

Lemma de16_lt a b : a < 256 -> b < 256 -> de16 a b < 65536.
Proof. unfold de16. lia. Qed.

Lemma be32_de32 a b c d : a < 256 -> b < 256 -> c < 256 -> d < 256 ->
  be32 (de32 a b c d) = [a; b; c; d].
Proof.
  intros Ha Hb Hc Hd. unfold be32, de32.
  change 16777216 with (256 * 256 * 256). change 65536 with (256 * 256).
  rewrite <- !N.div_div by discriminate.
  rewrite !digit_div, !digit_mod by assumption.
  rewrite (N.mod_small a) by exact Ha. reflexivity.
Qed.

Lemma de32_be32 n : n < 4294967296 ->
  de32 ((n / 16777216) mod 256) ((n / 65536) mod 256) ((n / 256) mod 256) (n mod 256) = n.
Proof.
  intros H. unfold de32.
  change 16777216 with (256 * 256 * 256). change 65536 with (256 * 256).
  rewrite <- !N.div_div by discriminate.
  rewrite (N.mod_small (n / 256 / 256 / 256)).
  - rewrite !digits_join. reflexivity.
  - repeat (apply N.div_lt_upper_bound; [discriminate|]). exact H.
Qed.

Lemma de32_lt a b c d : a < 256 -> b < 256 -> c < 256 -> d < 256 -> de32 a b c d < 4294967296.
Proof. unfold de32. lia. Qed.

Lemma wfb_be16 n : wfb (be16 n).
Proof. unfold wfb, be16. repeat constructor; apply N.mod_lt; discriminate. Qed.

Lemma wfb_be32 n : wfb (be32 n).
Proof. unfold wfb, be32. repeat constructor; apply N.mod_lt; discriminate. Qed.

Lemma wfb_app a b : wfb (a ++ b) <-> wfb a /\ wfb b.
Proof. unfold wfb. apply Forall_app. Qed.

Lemma wfb_cons x a : wfb (x :: a) <-> x < 256 /\ wfb a.
Proof. exact (Forall_cons_iff (fun y => y < 256) x a). Qed.

Lemma wfbb_spec b : wfbb b = true <-> wfb b.
Proof.
  unfold wfbb, wfb. rewrite forallb_forall, Forall_forall.
  split; intros H x Hx; apply N.ltb_lt, H, Hx.
Qed.

Lemma zeros_all_zero n : Forall (fun x => x = 0) (zeros n).
Proof. apply Forall_forall. intros x Hx. apply (repeat_spec _ _ _ Hx). Qed.

Lemma wfb_zeros n : wfb (zeros n).
Proof. eapply Forall_impl; [|apply zeros_all_zero]. intros x ->. reflexivity. Qed.

Lemma lenN_app {A} (a b : list A) : lenN (a ++ b) = lenN a + lenN b.
Proof. unfold lenN. rewrite app_length. apply Nat2N.inj_add. Qed.

Lemma lenN_cons {A} (x : A) a : lenN (x :: a) = 1 + lenN a.
Proof. apply (lenN_app [x] a). Qed.

Lemma lenN_nil {A} : lenN (@nil A) = 0.
Proof. reflexivity. Qed.

Lemma lenN_repeat {A} (x : A) n : lenN (repeat x (N.to_nat n)) = n.
Proof. unfold lenN. rewrite repeat_length. apply N2Nat.id. Qed.

Lemma lenN_zeros n : lenN (zeros n) = n.
Proof. apply lenN_repeat. Qed.

Lemma lenN_zero_nil {A} (l : list A) : lenN l = 0 <-> l = [].
Proof. destruct l; [tauto|]. rewrite lenN_cons. split; [lia | discriminate]. Qed.

Lemma lenN_pos_iff {A} (l : list A) : 0 < lenN l <-> l <> [].
Proof. rewrite <- lenN_zero_nil. lia. Qed.

Lemma takeN_0 {A} (l : list A) : takeN 0 l = [].
Proof. reflexivity. Qed.

Lemma dropN_0 {A} (l : list A) : dropN 0 l = l.
Proof. reflexivity. Qed.

Lemma takeN_succ {A} n (x : A) l : takeN (N.succ n) (x :: l) = x :: takeN n l.
Proof. unfold takeN. rewrite N2Nat.inj_succ. reflexivity. Qed.

Lemma dropN_succ {A} n (x : A) l : dropN (N.succ n) (x :: l) = dropN n l.
Proof. unfold dropN. rewrite N2Nat.inj_succ. reflexivity. Qed.

Lemma takeN_dropN {A} n (l : list A) : takeN n l ++ dropN n l = l.
Proof. apply firstn_skipn. Qed.

Lemma takeN_all {A} n (l : list A) : lenN l <= n -> takeN n l = l.
Proof. unfold takeN, lenN. intros H. apply firstn_all2. lia. Qed.

Lemma dropN_all {A} n (l : list A) : lenN l <= n -> dropN n l = [].
Proof. unfold dropN, lenN. intros H. apply skipn_all2. lia. Qed.

Lemma takeN_app {A} n (d r : list A) : takeN n (d ++ r) = takeN n d ++ takeN (n - lenN d) r.
Proof. unfold takeN, lenN. rewrite firstn_app, N2Nat.inj_sub, Nat2N.id. reflexivity. Qed.

Lemma dropN_app {A} n (d r : list A) : dropN n (d ++ r) = dropN n d ++ dropN (n - lenN d) r.
Proof. unfold dropN, lenN. rewrite skipn_app, N2Nat.inj_sub, Nat2N.id. reflexivity. Qed.

Lemma takeN_app_le {A} n (l c : list A) : n <= lenN l -> takeN n (l ++ c) = takeN n l.
Proof. intros H. rewrite takeN_app, (proj2 (N.sub_0_le _ _) H). apply app_nil_r. Qed.

Lemma dropN_app_le {A} n (l c : list A) : n <= lenN l -> dropN n (l ++ c) = dropN n l ++ c.
Proof. intros H. rewrite dropN_app, (proj2 (N.sub_0_le _ _) H). reflexivity. Qed.

Lemma takeN_app_ge {A} n (d r : list A) : lenN d <= n -> takeN n (d ++ r) = d ++ takeN (n - lenN d) r.
Proof. intros H. rewrite takeN_app, takeN_all by exact H. reflexivity. Qed.

Lemma dropN_app_ge {A} n (d r : list A) : lenN d <= n -> dropN n (d ++ r) = dropN (n - lenN d) r.
Proof. intros H. rewrite dropN_app, dropN_all by exact H. reflexivity. Qed.

Lemma takeN_app_exact {A} (d r : list A) : takeN (lenN d) (d ++ r) = d.
Proof. rewrite takeN_app_ge, N.sub_diag by apply N.le_refl. apply app_nil_r. Qed.

Lemma dropN_app_exact {A} (d r : list A) : dropN (lenN d) (d ++ r) = r.
Proof. rewrite dropN_app_ge, N.sub_diag by apply N.le_refl. reflexivity. Qed.

Lemma lenN_takeN_min {A} n (l : list A) : lenN (takeN n l) = N.min n (lenN l).
Proof. unfold lenN, takeN. rewrite firstn_length. lia. Qed.

Lemma lenN_takeN {A} n (l : list A) : n <= lenN l -> lenN (takeN n l) = n.
Proof. intros H. rewrite lenN_takeN_min. apply N.min_l, H. Qed.

Lemma lenN_takeN_le {A} n (l : list A) : lenN (takeN n l) <= n.
Proof. rewrite lenN_takeN_min. apply N.le_min_l. Qed.

Lemma lenN_dropN {A} n (l : list A) : lenN (dropN n l) = lenN l - n.
Proof. unfold lenN, dropN. rewrite skipn_length. lia. Qed.

Lemma takeN_min {A} (l : list A) n : takeN (N.min (lenN l) n) l = takeN n l.
Proof.
  destruct (N.min_spec (lenN l) n) as [[H ->]|[_ ->]]; [|reflexivity].
  rewrite !takeN_all by lia. reflexivity.
Qed.

Lemma dropN_min {A} (l : list A) n : dropN (N.min (lenN l) n) l = dropN n l.
Proof.
  destruct (N.min_spec (lenN l) n) as [[H ->]|[_ ->]]; [|reflexivity].
  rewrite !dropN_all by lia. reflexivity.
Qed.

Lemma takeN_nonempty {A} n (l : list A) : 0 < n -> l <> [] -> takeN n l <> [].
Proof.
  intros Hn Hl E. apply Hl, lenN_zero_nil. apply lenN_pos_iff in Hl.
  pose proof (lenN_takeN_min n l) as H. rewrite E in H. cbn in H. lia.
Qed.

Lemma dropN_dropN {A} a b (l : list A) : dropN a (dropN b l) = dropN (b + a) l.
Proof.
  unfold dropN. rewrite N2Nat.inj_add. generalize (N.to_nat a) (N.to_nat b). intros x y.
  revert l. induction y as [|y IH]; intros l; [reflexivity|].
  destruct l; [apply skipn_nil | apply IH].
Qed.

Lemma dropN_app_plus {A} (a b : list A) n : dropN (lenN a + n) (a ++ b) = dropN n b.
Proof. rewrite <- dropN_dropN, dropN_app_exact. reflexivity. Qed.

Lemma wfb_take_drop n l : wfb l -> wfb (takeN n l) /\ wfb (dropN n l).
Proof. intros H. rewrite <- (takeN_dropN n l) in H. apply wfb_app in H. exact H. Qed.

Lemma nth_skipn_add {A} (d : A) : forall n i (l : list A), nth i (skipn n l) d = nth (n + i) l d.
Proof.
  induction n as [|n IH]; intros i l; [reflexivity|].
  destruct l as [|x l]; [destruct i; reflexivity|]. cbn [skipn Nat.add nth]. apply IH.
Qed.

Lemma nth_firstn_lt {A} (d : A) : forall n i (l : list A), (i < n)%nat -> nth i (firstn n l) d = nth i l d.
Proof.
  induction n as [|n IH]; intros i l H; [lia|].
  destruct l as [|x l]; [reflexivity|]. destruct i as [|i]; [reflexivity|].
  cbn [firstn nth]. apply IH. lia.
Qed.

Lemma bytes_eqb_eq a : forall b, bytes_eqb a b = true <-> a = b.
Proof.
  induction a as [|x a IH]; intros [|y b]; cbn [bytes_eqb]; try (split; congruence).
  rewrite andb_true_iff, N.eqb_eq, IH. split; [intros [-> ->]; reflexivity | intros E; injection E; auto].
Qed.

Lemma bytes_eqb_refl a : bytes_eqb a a = true.
Proof. apply bytes_eqb_eq. reflexivity. Qed.

Lemma bytes_eqb_neq a b : a <> b -> bytes_eqb a b = false.
Proof. intros H. apply not_true_is_false. rewrite bytes_eqb_eq. exact H. Qed.

Lemma bytes_eqb_sym a b : bytes_eqb a b = bytes_eqb b a.
Proof.
  destruct (bytes_eqb a b) eqn:E1, (bytes_eqb b a) eqn:E2; try reflexivity.
  - apply bytes_eqb_eq in E1. subst. rewrite bytes_eqb_refl in E2. discriminate.
  - apply bytes_eqb_eq in E2. subst. rewrite bytes_eqb_refl in E1. discriminate.
Qed.

Lemma forallb_rev {A} (f : A -> bool) l : forallb f (rev l) = forallb f l.
Proof.
  induction l as [|x l IH]; [reflexivity|]. cbn [rev forallb].
  rewrite forallb_app, IH. cbn [forallb]. rewrite andb_true_r. apply andb_comm.
Qed.

Lemma forallb_imp {A} (f g : A -> bool) l :
  (forall x, f x = true -> g x = true) -> forallb f l = true -> forallb g l = true.
Proof. intros H. rewrite !forallb_forall. intros Hl x Hx. apply H, Hl, Hx. Qed.

Lemma filter_all_true {A} (p : A -> bool) l : Forall (fun x => p x = true) l -> filter p l = l.
Proof. induction 1 as [|x l Hx _ IH]; cbn; [reflexivity | rewrite Hx, IH; reflexivity]. Qed.

Lemma NoDup_map_inj_on {A B} (f : A -> B) l :
  (forall x y, In x l -> In y l -> f x = f y -> x = y) -> NoDup l -> NoDup (map f l).
Proof.
  intros Hinj Hnd. induction Hnd as [|x l Hni Hnd IH]; cbn [map]; constructor.
  - intros Hin. apply in_map_iff in Hin. destruct Hin as (y & Hy & Hyl).
    assert (y = x) by (apply Hinj; [right; exact Hyl | left; reflexivity | exact Hy]). subst. auto.
  - apply IH. intros a b Ha Hb. apply Hinj; right; assumption.
Qed.

Lemma u32_of_small n : n < 4294967296 -> u32_of n = n.
Proof. intros H. unfold u32_of. apply N.mod_small. exact H. Qed.

(* lia for goals on N with / or mod: lia alone treats a quotient or remainder as an opaque term; this adds the
   equations of euclidean division for each of them first *)
Ltac lia_div := zify; Z.to_euclidean_division_equations; lia.

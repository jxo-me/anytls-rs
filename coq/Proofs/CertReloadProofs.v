(* CertReloadProofs.v -- the certificate reloader of Model/CertReload.v (C18).  reload_cases splits one reload
   into failure (state unchanged) and success (a pair that passed every check); over histories this gives the
   invariant that the served pair was installed by the initial load or by a successful reload, the bound on the
   counter, and that connections and sessions keep the snapshot they were opened with.
   All statements hold for EVERY environment (PEM/X.509 parsers, key-match test, clocks): the section
   variables are universally quantified in the closed lemmas. *)
From Coq Require Import List NArith ZArith Bool Lia.
From AnyTLS Require Import Generated FactsCert CertReload.
Import ListNotations.
Open Scope Z_scope.

Section Proofs.
  Variables blob chain pkey ident : Type.
  Variable parse_certs : blob -> option chain.
  Variable parse_key   : blob -> option pkey.
  Variable pair_ok     : chain -> pkey -> bool.
  Variable parse_info  : blob -> option (ident * Z).
  Variable check_expiry : bool.

  Notation cr_load := (cr_load blob chain pkey ident parse_certs parse_key pair_ok parse_info).
  Notation cr_analyze := (cr_analyze blob ident parse_info).
  Notation cr_new := (cr_new blob chain pkey ident parse_certs parse_key pair_ok parse_info).
  Notation cr_reload := (cr_reload blob chain pkey ident parse_certs parse_key pair_ok parse_info check_expiry).
  Notation cr_run_state := (cr_run_state blob chain pkey ident parse_certs parse_key pair_ok parse_info check_expiry).
  Notation cr_outcomes := (cr_outcomes blob chain pkey ident parse_certs parse_key pair_ok parse_info check_expiry).
  Notation cr_step := (cr_step blob chain pkey ident parse_certs parse_key pair_ok parse_info check_expiry).
  Notation cr_run := (cr_run blob chain pkey ident parse_certs parse_key pair_ok parse_info check_expiry).
  Notation cr_state := (cr_state blob chain pkey ident).
  Notation cr_sys := (cr_sys blob chain pkey ident).
  Notation cr_loaded := (cr_loaded blob chain pkey).

  (* a pair that passed every check of one load *)
  Definition valid_pair (l : cr_loaded) : Prop :=
    parse_certs (l_cert l) = Some (l_chain l) /\
    parse_key (l_key l) = Some (l_pkey l) /\
    pair_ok (l_chain l) (l_pkey l) = true.

  Lemma load_ok_inv : forall rd w l oi,
    cr_load rd w = inl (l, oi) ->
    rd_cert rd = Some (l_cert l) /\ rd_key rd = Some (l_key l) /\ valid_pair l /\
    oi = cr_analyze w (l_cert l).
  Proof.
    intros rd w l oi H. unfold CertReload.cr_load in H.
    destruct (rd_cert rd) as [cb|] eqn:Ec; [|discriminate].
    destruct (parse_certs cb) as [ch|] eqn:Ep; [|discriminate].
    destruct (rd_key rd) as [kb|] eqn:Ek; [|discriminate].
    destruct (parse_key kb) as [k|] eqn:Epk; [|discriminate].
    destruct (pair_ok ch k) eqn:Eok; [|discriminate].
    inversion H; subst; clear H. cbn.
    unfold valid_pair; cbn. repeat split; auto.
  Qed.

  Lemma load_ignores_second_read : forall c k c2 c2' w,
    cr_load (Build_cr_reads c k c2) w = cr_load (Build_cr_reads c k c2') w.
  Proof. reflexivity. Qed.

  Lemma not_expired_at_check : forall c (i : certinfo ident),
    cr_expired_at_reload ident c i = false -> cr_wall_chk c <= ci_not_after i.
  Proof.
    intros c i H. unfold cr_expired_at_reload in H.
    rewrite cert_reload_expiry_exact in H.
    apply orb_false_iff in H. destruct H as [_ H]. cbn in H.
    apply Z.ltb_ge in H. exact H.
  Qed.

  Lemma reload_cases : forall st rd c,
    (exists e, cr_reload st rd c = (st, CrErr e)) \/
    (exists l i,
        rd_cert rd = Some (l_cert l) /\ rd_key rd = Some (l_key l) /\ valid_pair l /\
        cr_analyze (cr_wall_an c) (l_cert l) = Some i /\
        (check_expiry = true -> cr_wall_chk c <= ci_not_after i) /\
        ((cr_count st <> cr_u64_max /\
          cr_reload st rd c = (Build_cr_state l (Some i) (cr_count st + 1)%N (Some (cr_mono c)), CrOk)) \/
         (cr_count st = cr_u64_max /\
          cr_reload st rd c = (Build_cr_state l (Some i) (cr_count st) (cr_last st), CrPanic)))).
  Proof.
    intros st rd c. unfold CertReload.cr_reload.
    destruct (cr_load rd (cr_wall_an c)) as [[l [i|]]|e] eqn:El; [|left; eexists; reflexivity..].
    destruct (check_expiry && cr_expired_at_reload ident c i) eqn:Ex; [left; eexists; reflexivity|].
    right. exists l, i. destruct (load_ok_inv _ _ _ _ El) as (Hc & Hk & Hv & Hi).
    split; [exact Hc|]. split; [exact Hk|]. split; [exact Hv|]. split; [symmetry; exact Hi|]. split.
    - intro Hce. rewrite Hce in Ex. apply not_expired_at_check, Ex.
    - destruct (N.eqb_spec (cr_count st) cr_u64_max) as [E|E]; [right|left]; (split; [exact E|reflexivity]).
  Qed.

  Lemma fail_unchanged : forall st rd c st' e,
    cr_reload st rd c = (st', CrErr e) -> st' = st.
  Proof.
    intros st rd c st' e H.
    destruct (reload_cases st rd c) as [[e' E]|(l & i & _ & _ & _ & _ & _ & [[_ E]|[_ E]])];
      rewrite E in H; inversion H; reflexivity.
  Qed.

  Lemma success_pair : forall st rd c st',
    cr_reload st rd c = (st', CrOk) ->
    exists i,
      rd_cert rd = Some (l_cert (cr_active st')) /\ rd_key rd = Some (l_key (cr_active st')) /\
      valid_pair (cr_active st') /\
      cr_analyze (cr_wall_an c) (l_cert (cr_active st')) = Some i /\ cr_info st' = Some i /\
      (check_expiry = true -> cr_wall_chk c <= ci_not_after i) /\
      cr_count st' = (cr_count st + 1)%N /\ cr_last st' = Some (cr_mono c).
  Proof.
    intros st rd c st' H.
    destruct (reload_cases st rd c) as [[e' E]|(l & i & Hc & Hk & Hv & Hi & Hx & [[_ E]|[_ E]])];
      rewrite E in H; inversion H; subst; clear H.
    exists i. cbn. repeat split; auto; apply Hv.
  Qed.

  Lemma expired_fails : forall st rd c cb id na r st',
    check_expiry = true ->
    rd_cert rd = Some cb -> parse_info cb = Some (id, na) -> na < cr_wall_chk c ->
    cr_reload st rd c = (st', r) -> st' = st /\ exists e, r = CrErr e.
  Proof.
    intros st rd c cb id na r st' Hce Hc Hp Hlt H.
    destruct (reload_cases st rd c) as [[e' E]|(l & i & Hc' & _ & _ & Hi & Hx & _)].
    - rewrite E in H; inversion H; subst. split; [reflexivity | eexists; reflexivity].
    - exfalso. rewrite Hc in Hc'. injection Hc' as ->.
      unfold CertReload.cr_analyze in Hi. rewrite Hp in Hi. injection Hi as <-.
      specialize (Hx Hce). cbn in Hx. lia.
  Qed.

  Lemma bad_input_fails : forall st rd c,
    (rd_cert rd = None \/ rd_key rd = None \/
     (exists cb, rd_cert rd = Some cb /\ (parse_certs cb = None \/ parse_info cb = None)) \/
     (exists kb, rd_key rd = Some kb /\ parse_key kb = None) \/
     (exists cb kb ch k, rd_cert rd = Some cb /\ rd_key rd = Some kb /\
        parse_certs cb = Some ch /\ parse_key kb = Some k /\ pair_ok ch k = false)) ->
    exists e, cr_reload st rd c = (st, CrErr e).
  Proof.
    intros st rd c H.
    destruct (reload_cases st rd c) as [E|(l & i & Hc & Hk & (Hpc & Hpk & Hok) & Hi & _)]; [exact E|].
    exfalso. unfold CertReload.cr_analyze in Hi.
    destruct H as [H|[H|[(cb & H1 & H2)|[(kb & H1 & H2)|(cb & kb & ch & k & H1 & H2 & H3 & H4 & H5)]]]].
    - congruence.
    - congruence.
    - rewrite Hc in H1. injection H1 as <-. destruct H2 as [H2|H2]; [congruence|].
      rewrite H2 in Hi. discriminate.
    - congruence.
    - rewrite Hc in H1. injection H1 as <-. rewrite Hk in H2. injection H2 as <-. congruence.
  Qed.

  Lemma run_state_app : forall evs1 evs2 st,
    cr_run_state st (evs1 ++ evs2) = cr_run_state (cr_run_state st evs1) evs2.
  Proof.
    induction evs1 as [|[rd c] evs1 IH]; intros; cbn; [reflexivity | apply IH].
  Qed.

  (* the event that installed the current pair *)
  Definition installed_by (st0 st : cr_state) (rd0 : cr_reads blob) (c0 : cr_clock) (evs : list (cr_reads blob * cr_clock))
             (rd : cr_reads blob) (c : cr_clock) : Prop :=
    rd_cert rd = Some (l_cert (cr_active st)) /\ rd_key rd = Some (l_key (cr_active st)) /\
    valid_pair (cr_active st) /\
    cr_info st = cr_analyze (cr_wall_an c) (l_cert (cr_active st)) /\
    (((rd, c) = (rd0, c0) /\ cr_active st = cr_active st0 /\ cr_info st = cr_info st0) \/
     (In (rd, c) evs /\ exists i, cr_info st = Some i /\
                                 (check_expiry = true -> cr_wall_chk c <= ci_not_after i))).

  Lemma installed_by_weaken : forall st0 st rd0 c0 evs evs' rd c,
    installed_by st0 st rd0 c0 evs rd c -> (forall x, In x evs -> In x evs') ->
    installed_by st0 st rd0 c0 evs' rd c.
  Proof.
    intros st0 st rd0 c0 evs evs' rd c (H1 & H2 & H3 & H4 & H5) Hin.
    repeat split; try apply H3; auto.
    destruct H5 as [H5|[H5 H6]]; [left; exact H5 | right; split; auto].
  Qed.

  Lemma invariant_step : forall st0 rd0 c0 pre st rd c,
    (exists rdx cx, installed_by st0 st rd0 c0 pre rdx cx) ->
    exists rdx cx, installed_by st0 (fst (cr_reload st rd c)) rd0 c0 (pre ++ [(rd, c)]) rdx cx.
  Proof.
    intros st0 rd0 c0 pre st rd c (rdx & cx & Hinst).
    destruct (reload_cases st rd c) as [[e E]|(l & i & Hc & Hk & Hv & Hi & Hexp & Hrest)].
    - rewrite E. cbn. exists rdx, cx. eapply installed_by_weaken; [exact Hinst|].
      intros x Hx. apply in_or_app; left; exact Hx.
    - exists rd, c.
      assert (Hin : In (rd, c) (pre ++ [(rd, c)])) by (apply in_or_app; right; left; reflexivity).
      (* whether or not the counter could be incremented, l is installed with information i *)
      assert (E : cr_active (fst (cr_reload st rd c)) = l /\ cr_info (fst (cr_reload st rd c)) = Some i)
        by (destruct Hrest as [[_ ->]|[_ ->]]; split; reflexivity).
      destruct E as [Ea Ei]. unfold installed_by. rewrite Ea, Ei.
      split; [exact Hc|]. split; [exact Hk|]. split; [exact Hv|]. split; [symmetry; exact Hi|].
      right. split; [exact Hin|]. exists i. split; [reflexivity | exact Hexp].
  Qed.

  Lemma invariant_from : forall evs st0 rd0 c0 pre st,
    (exists rdx cx, installed_by st0 st rd0 c0 pre rdx cx) ->
    exists rdx cx, installed_by st0 (cr_run_state st evs) rd0 c0 (pre ++ evs) rdx cx.
  Proof.
    induction evs as [|[rd c] evs IH]; intros st0 rd0 c0 pre st H.
    - cbn. rewrite app_nil_r. exact H.
    - cbn [CertReload.cr_run_state].
      replace (pre ++ (rd, c) :: evs) with ((pre ++ [(rd, c)]) ++ evs)
        by (rewrite <- app_assoc; reflexivity).
      apply IH. apply invariant_step. exact H.
  Qed.

  Lemma new_installed : forall rd0 c0 st0,
    cr_new rd0 c0 = inl st0 ->
    installed_by st0 st0 rd0 c0 [] rd0 c0 /\ cr_count st0 = 0%N /\ cr_last st0 = None.
  Proof.
    intros rd0 c0 st0 H. unfold CertReload.cr_new in H.
    destruct (cr_load rd0 (cr_wall_an c0)) as [[l oi]|e] eqn:El; [|discriminate].
    inversion H; subst; clear H. apply load_ok_inv in El.
    destruct El as (Hc & Hk & Hv & Hi). cbn.
    split; [|split; reflexivity].
    unfold installed_by; cbn. repeat split; auto; try apply Hv.
  Qed.

  Theorem invariant : forall rd0 c0 st0 evs,
    cr_new rd0 c0 = inl st0 ->
    exists rd c, installed_by st0 (cr_run_state st0 evs) rd0 c0 evs rd c.
  Proof.
    intros rd0 c0 st0 evs H. apply new_installed in H. destruct H as [H _].
    change evs with ([] ++ evs) at 2.
    apply invariant_from. exists rd0, c0. exact H.
  Qed.

  Lemma count_step : forall st rd c,
    (cr_count (fst (cr_reload st rd c)) <= cr_count st + 1)%N /\
    (snd (cr_reload st rd c) = CrPanic -> cr_count st = cr_u64_max).
  Proof.
    intros st rd c.
    destruct (reload_cases st rd c) as [[e E]|(l & i & _ & _ & _ & _ & _ & [[Hn E]|[Hn E]])]; rewrite E; cbn.
    - split; [lia | discriminate].
    - split; [lia | discriminate].
    - split; [lia | auto].
  Qed.

  Lemma count_bound : forall evs st,
    (cr_count (cr_run_state st evs) <= cr_count st + N.of_nat (length evs))%N.
  Proof.
    induction evs as [|[rd c] evs IH]; intros st; cbn [CertReload.cr_run_state length].
    - lia.
    - specialize (IH (fst (cr_reload st rd c))). pose proof (count_step st rd c) as [H _]. lia.
  Qed.

  (* the checked increment cannot overflow while cr_count st plus the number of requests is at most u64::MAX *)
  Theorem no_panic : forall evs st,
    (cr_count st + N.of_nat (length evs) <= cr_u64_max)%N -> ~ In CrPanic (cr_outcomes st evs).
  Proof.
    induction evs as [|[rd c] evs IH]; intros st Hb Hin; cbn in Hin; [exact Hin|].
    cbn [length] in Hb.
    pose proof (count_step st rd c) as [Hle Hp].
    destruct Hin as [Hin|Hin].
    - apply Hp in Hin. lia.
    - apply (IH (fst (cr_reload st rd c))); [lia | exact Hin].
  Qed.

  Theorem failures_keep_state : forall evs st,
    Forall (fun r => exists e, r = CrErr e) (cr_outcomes st evs) -> cr_run_state st evs = st.
  Proof.
    induction evs as [|[rd c] evs IH]; intros st H; cbn in *; [reflexivity|].
    inversion H as [|r rs [e He] Hrs]; subst.
    assert (Hst : fst (cr_reload st rd c) = st).
    { destruct (cr_reload st rd c) as [st' r] eqn:E. cbn in *. subst r. eapply fail_unchanged; exact E. }
    rewrite Hst in *. apply IH. exact Hrs.
  Qed.

  Lemma run_prefix : forall ops s,
    (exists tl, cr_conns (cr_run s ops) = cr_conns s ++ tl) /\ (exists tl, cr_sess (cr_run s ops) = cr_sess s ++ tl).
  Proof.
    induction ops as [|o ops IH]; intros s; cbn [CertReload.cr_run].
    - split; exists []; rewrite app_nil_r; reflexivity.
    - destruct (IH (cr_step s o)) as [[t1 H1] [t2 H2]]. rewrite H1, H2.
      destruct o; cbn; rewrite <- ?app_assoc; eauto.
  Qed.

  Lemma run_app : forall ops1 ops2 s, cr_run s (ops1 ++ ops2) = cr_run (cr_run s ops1) ops2.
  Proof. induction ops1 as [|o ops1 IH]; intros; cbn; [reflexivity | apply IH]. Qed.

  Lemma nth_error_app_here : forall (A : Type) (l tl : list A) (x : A),
    nth_error ((l ++ [x]) ++ tl) (length l) = Some x.
  Proof.
    intros A l tl x. rewrite <- app_assoc. rewrite nth_error_app2 by lia.
    rewrite Nat.sub_diag. reflexivity.
  Qed.

  Theorem snapshot_conn : forall s before after,
    nth_error (cr_conns (cr_run s (before ++ CrAccept :: after))) (length (cr_conns (cr_run s before)))
    = Some (cr_active (cr_rl (cr_run s before))).
  Proof.
    intros s before after. rewrite run_app. cbn [CertReload.cr_run].
    destruct (run_prefix after (cr_step (cr_run s before) CrAccept)) as [[tl H] _].
    rewrite H. cbn [CertReload.cr_step cr_conns]. apply nth_error_app_here.
  Qed.

  Theorem snapshot_sess : forall s before after,
    nth_error (cr_sess (cr_run s (before ++ CrEstablish :: after))) (length (cr_sess (cr_run s before)))
    = Some (cr_active (cr_rl (cr_run s before))).
  Proof.
    intros s before after. rewrite run_app. cbn [CertReload.cr_run].
    destruct (run_prefix after (cr_step (cr_run s before) CrEstablish)) as [_ [tl H]].
    rewrite H. cbn [CertReload.cr_step cr_sess]. apply nth_error_app_here.
  Qed.

  Theorem undisturbed : forall s ops j a,
    (nth_error (cr_conns s) j = Some a -> nth_error (cr_conns (cr_run s ops)) j = Some a) /\
    (nth_error (cr_sess s) j = Some a -> nth_error (cr_sess (cr_run s ops)) j = Some a).
  Proof.
    intros s ops j a. destruct (run_prefix ops s) as [[t1 H1] [t2 H2]].
    split; intro H; [rewrite H1 | rewrite H2];
      (rewrite nth_error_app1; [exact H | apply nth_error_Some; congruence]).
  Qed.

  Fixpoint reload_events (ops : list (cr_op blob)) : list (cr_reads blob * cr_clock) :=
    match ops with
    | [] => []
    | CrReload rd c :: ops' => (rd, c) :: reload_events ops'
    | _ :: ops' => reload_events ops'
    end.

  Lemma rl_run : forall ops s, cr_rl (cr_run s ops) = cr_run_state (cr_rl s) (reload_events ops).
  Proof.
    induction ops as [|[rd c| |] ops IH]; intros s; cbn [CertReload.cr_run reload_events CertReload.cr_run_state];
      try reflexivity; rewrite IH; reflexivity.
  Qed.
End Proofs.

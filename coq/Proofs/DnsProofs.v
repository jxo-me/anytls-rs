(* DnsProofs.v -- lemmas behind C07 part (b): the resolver cache never changes the port/host outcome. *)
From Coq Require Import List NArith ZArith Lia Bool.
From AnyTLS Require Import Bytes Generated FactsParsers DnsCache BytesFacts.
Import ListNotations.
Open Scope N_scope.

Lemma c_find_remove c h h' :
  c_find (c_remove c h) h' = if bytes_eqb h h' then None else c_find c h'.
Proof.
  induction c as [|[k e] c IH]; cbn [c_remove c_find].
  - destruct (bytes_eqb h h'); reflexivity.
  - destruct (bytes_eqb k h) eqn:E1.
    + apply bytes_eqb_eq in E1. subst k. rewrite IH. destruct (bytes_eqb h h'); reflexivity.
    + cbn [c_find]. destruct (bytes_eqb k h') eqn:E2; [|exact IH].
      apply bytes_eqb_eq in E2. subst k. rewrite bytes_eqb_sym, E1. reflexivity.
Qed.

Lemma c_find_insert c h e h' :
  c_find (c_insert c h e) h' = if bytes_eqb h h' then Some e else c_find c h'.
Proof.
  unfold c_insert. cbn [c_find]. destruct (bytes_eqb h h') eqn:E; [reflexivity|].
  rewrite c_find_remove, E. reflexivity.
Qed.

Lemma ins_sorted_in a x l : In x (ins_sorted a l) <-> x = a \/ In x l.
Proof.
  induction l as [|b l IH]; cbn [ins_sorted In].
  - split; [intros [H|[]]; auto | intros [H|[]]; auto].
  - destruct (addr_leb a b); cbn [In]; [split; intros [H|H]; auto|].
    rewrite IH. tauto.
Qed.

Lemma sort_addrs_in x l : In x (sort_addrs l) <-> In x l.
Proof.
  induction l as [|a l IH]; cbn [sort_addrs fold_right In]; [tauto|].
  fold (sort_addrs l). rewrite ins_sorted_in, IH. split; intros [H|H]; auto.
Qed.

Lemma sorted_fill_in resolved port i p :
  In (i, p) (sort_addrs (map (fun i => (i, port)) resolved)) -> p = port /\ In i resolved.
Proof.
  intros H. apply (proj1 (sort_addrs_in _ _)) in H. apply in_map_iff in H. destruct H as (j & Hj & Hin).
  inversion Hj; subst. auto.
Qed.

Lemma sorted_fill_head resolved port i p rest :
  sort_addrs (map (fun i => (i, port)) resolved) = (i, p) :: rest -> p = port /\ In i resolved.
Proof. intros E. apply sorted_fill_in. rewrite E. left. reflexivity. Qed.

Lemma cache_get_in c now host i p :
  cache_get c now host = Some (i, p) ->
  exists e, c_find c host = Some e /\ In (i, p) (c_addrs e) /\ (now <= c_expires e)%Z.
Proof.
  unfold cache_get. destruct (c_find c host) as [e|]; [|discriminate].
  destruct (Z.leb_spec now (c_expires e)) as [Hle|Hgt]; [|discriminate]. cbn [andb].
  destruct (negb (lenN (c_addrs e) =? 0)); [|discriminate].
  intros Hn. apply nth_error_In in Hn. exists e. auto.
Qed.

Section Dns.
Variable parse_ip : bytes -> option ip.
Variable resolve : Z -> bytes -> list ip.
Variable c0 : cache.     (* the cache the history starts from: arbitrary (this covers seeded entries) *)

(* the port of every answer is the port of its own request (no hypothesis on times) *)
Lemma dns_request_port c now host port c' i p :
  dns_request parse_ip resolve c now host port = (c', Some (i, p)) -> p = port.
Proof.
  unfold dns_request. destruct (parse_ip host) as [j|].
  - intros H. inversion H; subst. reflexivity.
  - destruct (cache_get c now host) as [[j p0]|].
    + intros H. inversion H; subst. reflexivity.
    + destruct (sort_addrs (map (fun i0 => (i0, port)) (resolve now host))) as [|a rest] eqn:E; [discriminate|].
      intros H. inversion H; subst. apply sorted_fill_head in E. tauto.
Qed.

Lemma dns_run_port h : forall c a i p,
  In a (dns_run parse_ip resolve c h) -> a_res a = Some (i, p) -> p = a_port a.
Proof.
  induction h as [|[t op] h IH]; intros c a i p Hin Hr; [contradiction|].
  destruct op as [host port|]; cbn [dns_run] in Hin.
  - destruct (dns_request parse_ip resolve c t host port) as [c' r] eqn:E.
    destruct Hin as [<-|Hin]; [|eapply IH; eauto].
    cbn [a_res a_port] in *. subst r. eapply dns_request_port. exact E.
  - eapply IH; eauto.
Qed.

Definition entry_ok (tcur : Z) (host : bytes) (e : centry) : Prop :=
  forall i p0, In (i, p0) (c_addrs e) ->
    (exists t0, (t0 <= tcur)%Z /\ c_expires e = (t0 + dns_ttl)%Z /\ In i (resolve t0 host)) \/
    (exists e0, c_find c0 host = Some e0 /\ In i (map fst (c_addrs e0)) /\ c_expires e = c_expires e0).

Definition cache_ok (tcur : Z) (c : cache) : Prop :=
  forall host e, c_find c host = Some e -> entry_ok tcur host e.

Lemma cache_ok_c0 t : cache_ok t c0.
Proof.
  intros host e Hf i p0 Hin. right. exists e. split; [exact Hf|]. split; [|reflexivity].
  apply in_map_iff. exists (i, p0). auto.
Qed.

Lemma cache_ok_nil t : cache_ok t [].
Proof. intros host e Hf. discriminate. Qed.

Lemma cache_ok_mono t t' c : (t <= t')%Z -> cache_ok t c -> cache_ok t' c.
Proof.
  intros Hle Hok host e Hf i p0 Hin. destruct (Hok host e Hf i p0 Hin) as [(t0 & H1 & H2 & H3)|H]; [left|right; exact H].
  exists t0. split; [lia | auto].
Qed.

Lemma cache_ok_advance t c host : cache_ok t c -> cache_ok t (cache_advance c host).
Proof.
  intros Hok. unfold cache_advance. destruct (c_find c host) as [e|] eqn:E; [|exact Hok].
  intros h' e' Hf. rewrite c_find_insert in Hf. destruct (bytes_eqb host h') eqn:Eh.
  - apply bytes_eqb_eq in Eh. subst h'. inversion Hf; subst. exact (Hok host e E).
  - exact (Hok h' e' Hf).
Qed.

Lemma cache_ok_fill t c host port :
  cache_ok t c ->
  cache_ok t (cache_fill c t host (sort_addrs (map (fun i => (i, port)) (resolve t host)))).
Proof.
  intros Hok h' e' Hf. unfold cache_fill in Hf. rewrite c_find_insert in Hf.
  destruct (bytes_eqb host h') eqn:Eh.
  - apply bytes_eqb_eq in Eh. subst h'. inversion Hf; subst. intros i p0 Hin. cbn [c_addrs c_expires] in *.
    apply sorted_fill_in in Hin. left. exists t. split; [lia|]. tauto.
  - exact (Hok h' e' Hf).
Qed.

Definition justified (a : answer) : Prop :=
  match a_res a with
  | None => True
  | Some (i, p) =>
      p = a_port a /\
      (parse_ip (a_host a) = Some i \/
       (exists t0, (t0 <= a_time a <= t0 + dns_ttl)%Z /\ In i (resolve t0 (a_host a))) \/
       (exists e0, c_find c0 (a_host a) = Some e0 /\ In i (map fst (c_addrs e0)) /\ (a_time a <= c_expires e0)%Z))
  end.

Lemma dns_request_ok tprev c t host port c' r :
  cache_ok tprev c -> (tprev <= t)%Z ->
  dns_request parse_ip resolve c t host port = (c', r) ->
  cache_ok t c' /\ justified {| a_time := t; a_host := host; a_port := port; a_res := r |}.
Proof.
  intros Hok Hle. apply (cache_ok_mono tprev t c Hle) in Hok.
  unfold dns_request, justified. cbn [a_res a_port a_host a_time].
  destruct (parse_ip host) as [j|] eqn:Ep.
  - intros H. inversion H; subst. split; [exact Hok|]. split; [reflexivity|]. left. reflexivity.
  - destruct (cache_get c t host) as [[j p0]|] eqn:Eg.
    + intros H. inversion H; subst. split; [apply cache_ok_advance; exact Hok|]. split; [reflexivity|]. right.
      apply cache_get_in in Eg. destruct Eg as (e & Hf & Hin & Hexp).
      clear Hle. destruct (Hok host e Hf j p0 Hin) as [(t0 & H1 & H2 & H3)|(e0 & H1 & H2 & H3)].
      * left. exists t0. split; [lia | exact H3].
      * right. exists e0. split; [exact H1|]. split; [exact H2 | lia].
    + destruct (sort_addrs (map (fun i0 => (i0, port)) (resolve t host))) as [|a rest] eqn:E.
      * intros H. inversion H; subst. auto.
      * intros H. inversion H; subst. split.
        -- apply cache_ok_advance. rewrite <- E. apply cache_ok_fill. exact Hok.
        -- destruct a as [i p]. destruct (sorted_fill_head _ _ _ _ _ E) as [-> Hin]. split; [reflexivity|].
           right; left. exists t. pose proof dns_ttl_positive. unfold dns_ttl. split; [lia | exact Hin].
Qed.

Fixpoint times_sorted (t : Z) (h : list (Z * hop)) : Prop :=
  match h with
  | [] => True
  | (t', _) :: h' => (t <= t')%Z /\ times_sorted t' h'
  end.

Lemma dns_run_ok h : forall c t,
  cache_ok t c -> times_sorted t h -> forall a, In a (dns_run parse_ip resolve c h) -> justified a.
Proof.
  induction h as [|[t' op] h IH]; intros c t Hok Hs a Hin; [contradiction|].
  destruct Hs as [Hle Hs]. destruct op as [host port|]; cbn [dns_run] in Hin.
  - destruct (dns_request parse_ip resolve c t' host port) as [c' r] eqn:E.
    destruct (dns_request_ok t c t' host port c' r Hok Hle E) as [Hok' Hj].
    destruct Hin as [<-|Hin]; [exact Hj | exact (IH c' t' Hok' Hs a Hin)].
  - exact (IH [] t' (cache_ok_nil t') Hs a Hin).
Qed.

Theorem dns_cache_sound h t :
  times_sorted t h -> forall a, In a (dns_run parse_ip resolve c0 h) -> justified a.
Proof. intros Hs. exact (dns_run_ok h c0 t (cache_ok_c0 t) Hs). Qed.

End Dns.

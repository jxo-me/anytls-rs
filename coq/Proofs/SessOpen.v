(* SessOpen.v -- the pending-open slot is a one-shot; the opener's outcome is the verdict of the first
   decisive event.  Ids handed out by open_stream are pairwise distinct below 2^32 opens. *)
From Coq Require Import List NArith ZArith Lia Bool.
From AnyTLS Require Import Bytes Cmd Generated Frame Reader Session BytesFacts
  SessTable SessHandle.
Import ListNotations.
Import Sess.
Open Scope N_scope.

Lemma opener_poll_done o s t : opener_poll (Done o) s t = Done o.
Proof. reflexivity. Qed.

Lemma crun_done c sid es : forall st o, snd (crun c sid (st, Done o) es) = Done o.
Proof.
  induction es as [|e es IH]; intros st o; [reflexivity|].
  cbn [crun fold_left]. unfold cstep at 2. cbn [opener_poll]. apply IH.
Qed.

Lemma expect_done_stable sid : forall es reg alive o es2,
  expect sid reg alive es = Done o -> expect sid reg alive (es ++ es2) = Done o.
Proof.
  induction es as [|e es IH]; intros reg alive o es2 H; [discriminate|].
  cbn [app]. destruct e as [f| | |s]; cbn [expect] in *.
  - destruct (negb alive); [apply IH; exact H|].
    destruct (fcmd f); try (apply IH; exact H).
    + destruct reg; [exact H | apply IH; exact H].
    + destruct (reg && (fsid f =? sid)); [exact H | apply IH; exact H].
  - destruct (alive && reg); [exact H | apply IH; exact H].
  - destruct (alive && reg); [exact H | apply IH; exact H].
  - destruct (s =? sid); [exact H | apply IH; exact H].
Qed.

(* where the opener's object lives.  reg: the stream is registered and its open is still pending;
   unreg: it left the tables while pending *)
Definition reg_inv (st : sess) (sid : N) : Prop :=
  exists s, lookup sid (tbl st) = Some s /\ synack s = Pending /\ only sid (gone st) = [].
Definition unreg_inv (st : sess) (sid : N) : Prop :=
  lookup sid (tbl st) = None /\ exists s rest, only sid (gone st) = s :: rest /\ synack s = Pending.
Definition alive_of (st : sess) : bool := negb (s_closed st || dead st).

Lemma alive_of_true st : alive_of st = true <-> s_closed st = false /\ dead st = false.
Proof. unfold alive_of. rewrite negb_true_iff. apply orb_false_iff. Qed.

Lemma alive_of_with_dead st : alive_of (with_dead st) = false.
Proof. apply (f_equal negb (orb_true_r _)). Qed.

(* the same on the view of sid *)
Definition vpending (v : option stream * list stream) : Prop :=
  match v with
  | (Some s, []) | (None, s :: _) => synack s = Pending
  | _ => False
  end.
Definition vreg (v : option stream * list stream) : bool := match fst v with Some _ => true | None => false end.
Definition vslot (v : option stream * list stream) : slot :=
  match snd v, fst v with s :: _, _ => synack s | [], Some s => synack s | [], None => Pending end.

(* what every step of a waiting opener preserves; a stream that is still registered sits in a live session *)
Definition open_pending (st : sess) (sid : N) : Prop :=
  vpending (view sid st) /\ (vreg (view sid st) = true -> alive_of st = true).

Lemma open_pending_intro st sid :
  (reg_inv st sid /\ alive_of st = true) \/ unreg_inv st sid -> open_pending st sid.
Proof.
  unfold open_pending, view.
  intros [[(s & -> & Hs & ->) Ha]|(-> & s & rest & -> & Hs)]; (split; [exact Hs|]); [auto | discriminate].
Qed.

Lemma slot_of_view st sid : slot_of st sid = vslot (view sid st).
Proof.
  unfold slot_of, obj, view, vslot. cbn [fst snd].
  destruct (only sid (gone st)); [destruct (lookup sid (tbl st))|]; reflexivity.
Qed.

Lemma vpending_slot v : vpending v -> vslot v = Pending.
Proof. destruct v as [[s0|] [|s1 rest]]; cbn; tauto. Qed.

(* a frame other than Alert, on a client: only a SYNACK or a FIN for sid itself matters *)
Lemma vstep_expect c sid f v :
  is_client c = true -> no_alert f -> vpending v ->
  let v1 := if fsid f =? sid then vstep c f v else v in
  match opener_poll Waiting (vslot v1) false with
  | Done o => forall es, expect sid (vreg v) true (EFrame f :: es) = Done o
  | Waiting => vpending v1 /\
               forall es, expect sid (vreg v) true (EFrame f :: es) = expect sid (vreg v1) true es
  end.
Proof.
  intros Hcl Hna Hv. cbv zeta. unfold no_alert in Hna. cbn [expect negb]. destruct (fsid f =? sid).
  - unfold vstep. rewrite Hcl. destruct (fcmd f); try (elim Hna; reflexivity).
    all: destruct v as [[s0|] [|s1 rest]]; try contradiction; cbn [vpending] in Hv.
    all: cbn [vreg andb negb detached app vslot vpending fst snd push_data drop_tx synack opener_poll]; rewrite ?Hv.
    (* a FIN takes a registered stream out of the table with its slot still pending, and the other commands leave the
       slot alone: the opener goes on waiting, by computation.  Left is a SYNACK for the registered stream, which
       resolves the slot *)
    all: try (split; reflexivity).
    unfold resolve. rewrite Hv. cbn [synack]. destruct (is_nil (fdata f)); reflexivity.
  - rewrite (vpending_slot v Hv). split; [exact Hv|]. intros es.
    destruct (fcmd f); rewrite ?andb_false_r, ?andb_true_r; try reflexivity. elim Hna. reflexivity.
Qed.

(* the session ends, from inside the receive loop (st' is then marked dead as well) or by a local close: an
   opener whose stream is registered is told so, one whose stream has left the tables learns nothing *)
Lemma end_expect sid st st' :
  open_pending st sid -> view sid st' = view sid (fst (close st)) -> alive_of st' = false ->
  let reg := vreg (view sid st) in
  match opener_poll Waiting (vslot (view sid st')) false with
  | Done o => forall es, (if alive_of st && reg then Done OClosed else expect sid reg false es) = Done o
  | Waiting => open_pending st' sid /\
               forall es, (if alive_of st && reg then Done OClosed else expect sid reg false es) =
                          expect sid (vreg (view sid st')) (alive_of st') es
  end.
Proof.
  intros [Hp Hal] Hv Ha. cbv zeta. unfold open_pending. rewrite Ha, Hv, close_view. unfold view in *.
  destruct (lookup sid (tbl st)) as [s|] eqn:Hl, (only sid (gone st)) as [|s1 rest]; try contradiction;
    cbn [vpending vreg fst] in *.
  - rewrite (Hal eq_refl). destruct (proj1 (alive_of_true st) (Hal eq_refl)) as [-> _].
    destruct (lookup_only sid (tbl st) s Hl) as (rest & ->). cbn. rewrite Hp. reflexivity.
  - rewrite andb_false_r. destruct (s_closed st); cbn; rewrite Hp; (split; [split; [reflexivity | discriminate] | reflexivity]).
Qed.

Lemma cstep_expect c sid st e :
  cfg_ok c -> is_client c = true -> open_pending st sid ->
  let '(st', w) := cstep c sid (st, Waiting) e in
  match w with
  | Done o => forall es, expect sid (vreg (view sid st)) (alive_of st) (e :: es) = Done o
  | Waiting => open_pending st' sid /\
               forall es, expect sid (vreg (view sid st)) (alive_of st) (e :: es) =
                          expect sid (vreg (view sid st')) (alive_of st') es
  end.
Proof.
  intros Hok Hcl Hinv. pose proof (vpending_slot _ (proj1 Hinv)) as Hs. rewrite <- slot_of_view in Hs.
  assert (Hal : alive_of st = negb (s_closed st || dead st)) by reflexivity.
  destruct e as [f| | |s]; cbn [cstep expect].
  - destruct (s_closed st || dead st) eqn:Ecd; cbv iota; rewrite Hal; cbn [negb andb].
    + rewrite Hs. cbn [opener_poll]. auto.
    + apply orb_false_iff in Ecd. destruct Ecd as [Ec Ed]. cbn [handle_all]. rewrite Ed.
      destruct (alert_dec f) as [Ha|Hna].
      * rewrite (handle_alert c st f Ha), Ha, slot_of_view.
        pose proof (end_expect sid st (with_dead (fst (close st))) Hinv eq_refl (alive_of_with_dead _)) as H.
        cbv zeta in H. rewrite Hal in H. exact H.
      * pose proof (vstep_expect c sid f (view sid st) Hcl Hna (proj1 Hinv)) as H.
        cbv zeta in H. rewrite <- (handle_view c st f sid Hna) in H.
        destruct (handle_flags c st f Hna) as (Hc' & _ & _ & Hd').
        destruct (handle c st f) as [st1 o1]. cbn [fst] in *.
        assert (Hal1 : alive_of st1 = true) by (apply alive_of_true; rewrite Hc', (Hd' Hok); auto).
        rewrite slot_of_view. destruct (opener_poll Waiting (vslot (view sid st1)) false); [|exact H].
        destruct H as [Hp Hex]. split; [split; [exact Hp | intros _; exact Hal1]|].
        intros es. rewrite Hal1. exact (Hex es).
  - rewrite slot_of_view. apply (end_expect sid st (fst (close st)) Hinv eq_refl).
    unfold close, alive_of. destruct (s_closed st) eqn:E; cbn [fst s_closed]; rewrite ?E; reflexivity.
  - unfold recv_eof. destruct (s_closed st || dead st) eqn:Ecd; cbn [fst]; rewrite Hal; cbn [negb andb].
    + rewrite Hs. cbn [opener_poll]. auto.
    + pose proof (end_expect sid st (with_dead (fst (close st))) Hinv eq_refl (alive_of_with_dead _)) as H.
      cbv zeta in H. rewrite Hal in H. destruct (close st). rewrite slot_of_view. exact H.
  - rewrite Hs. cbn [opener_poll]. destruct (s =? sid); [reflexivity | auto].
Qed.

Lemma crun_expect c sid es : forall st,
  cfg_ok c -> is_client c = true -> open_pending st sid ->
  snd (crun c sid (st, Waiting) es) = expect sid (vreg (view sid st)) (alive_of st) es.
Proof.
  induction es as [|e es IH]; intros st Hok Hcl Hinv; [reflexivity|].
  pose proof (cstep_expect c sid st e Hok Hcl Hinv) as H.
  unfold crun. cbn [fold_left]. destruct (cstep c sid (st, Waiting) e) as [st' [|o]].
  - destruct H as [Hinv' Hex]. rewrite (Hex es). apply IH; assumption.
  - rewrite (H es). apply crun_done.
Qed.

Definition dial_wf (d : dial) : Prop :=
  match d with
  | DialFail m | DialTimeout m => m <> [] /\ lenN m <= max_payload
  | _ => True
  end.

Definition dial_payload (d : dial) : bytes :=
  match d with DialOk | DialUdp => [] | DialFail m | DialTimeout m => m end.

Lemma serve_open_spec st sid d :
  s_closed st = false -> dial_wf d ->
  serve_open st sid d =
    if 2 <=? peer_version st then [Send (mk SynAck sid (dial_payload d))] else [].
Proof.
  intros Hc Hw. unfold serve_open. destruct (2 <=? peer_version st); [|reflexivity].
  assert (Hl : lenN (dial_payload d) <= max_payload) by (destruct d; cbn; try apply Hw; apply N.le_0_l).
  destruct d; cbn [dial_payload] in *; rewrite write_ctrl_ok by assumption; reflexivity.
Qed.

Lemma success_after_dial st sid d :
  s_closed st = false -> dial_wf d ->
  (In (Send (mk SynAck sid [])) (serve_open st sid d) <-> (2 <= peer_version st /\ (d = DialOk \/ d = DialUdp))) /\
  (forall m, m <> [] -> In (Send (mk SynAck sid m)) (serve_open st sid d) <->
                        (2 <= peer_version st /\ (d = DialFail m \/ d = DialTimeout m))) /\
  (peer_version st < 2 -> serve_open st sid d = []) /\
  (forall o, In o (serve_open st sid d) -> exists m, o = Send (mk SynAck sid m)).
Proof.
  intros Hc Hw. rewrite (serve_open_spec st sid d Hc Hw).
  destruct (N.leb_spec 2 (peer_version st)) as [Hv|Hv].
  - split; [|split; [|split]].
    + split.
      * intros [E|[]]. injection E as E'. split; [exact Hv|].
        destruct d as [|m|m|]; cbn in *; auto; destruct Hw; congruence.
      * intros [_ [->| ->]]; left; reflexivity.
    + intros m Hm. split.
      * intros [E|[]]. injection E as E'. split; [exact Hv|].
        destruct d as [|m'|m'|]; cbn in *; subst; auto; congruence.
      * intros [_ [->| ->]]; left; reflexivity.
    + lia.
    + intros o [<-|[]]. eauto.
  - split; [|split; [|split]].
    + split; [intros [] | intros [H _]; lia].
    + intros m Hm. split; [intros [] | intros [H _]; lia].
    + reflexivity.
    + intros o [].
Qed.

Lemma open_next st st1 o sid :
  open st = (st1, o, Some sid) ->
  sid = next_id st /\ next_id st1 = u32_of (next_id st + 1) /\ s_closed st1 = false.
Proof.
  unfold open. destruct (s_closed st) eqn:Ec; [discriminate|]. intros H. injection H as <- _ <-.
  cbn [next_id s_closed]. destruct (install_fields (next_id st) st) as (_ & _ & Hc & _).
  repeat split; congruence.
Qed.

Lemma open_many_ids n : forall st,
  s_closed st = false -> next_id st < 4294967296 ->
  snd (open_many n st) = map (fun i => u32_of (next_id st + N.of_nat i)) (seq 0 n).
Proof.
  induction n as [|n IH]; intros st Hc Hlt; [reflexivity|].
  cbn [open_many]. destruct (open st) as [[st1 o] [sid|]] eqn:Eo.
  - destruct (open_next st st1 o sid Eo) as (-> & Hn & Hc1).
    specialize (IH st1 Hc1 ltac:(rewrite Hn; apply N.mod_lt; discriminate)).
    destruct (open_many n st1) as [st2 ids]. cbn [snd] in *. rewrite IH, Hn.
    cbn [seq map]. f_equal.
    + unfold u32_of. rewrite N.add_0_r. symmetry. apply N.mod_small, Hlt.
    + rewrite <- seq_shift, map_map. apply map_ext. intros i. unfold u32_of.
      rewrite N.add_mod_idemp_l by discriminate. f_equal. lia.
  - unfold open in Eo. rewrite Hc in Eo. discriminate.
Qed.

Lemma open_ids_distinct n st :
  s_closed st = false -> next_id st < 4294967296 -> N.of_nat n <= 4294967296 ->
  NoDup (snd (open_many n st)).
Proof.
  intros Hc Hlt Hn. rewrite (open_many_ids n st Hc Hlt).
  apply NoDup_map_inj_on; [|apply seq_NoDup].
  intros x y Hx Hy. apply in_seq in Hx, Hy. unfold u32_of. intros E. lia_div.
Qed.

Lemma content c st b s fs :
  cfg_ok c -> dead st = false -> lookup b (tbl st) = Some s ->
  Forall no_alert fs -> Forall (fun f => ends c b f = false) fs ->
  exists s', lookup b (tbl (fst (handle_all c st fs))) = Some s' /\
    rd s' = rd_pushes (rd s) (pushes b fs) /\ sclosed s' = sclosed s /\
    only b (gone (fst (handle_all c st fs))) = only b (gone st).
Proof.
  intros Hok Hd Hl Hna Hne.
  destruct (handle_all_content c st b s fs Hok Hd Hl (Forall_and Hna Hne)) as (s' & H1 & H2 & H3 & H4 & _).
  exists s'. auto.
Qed.

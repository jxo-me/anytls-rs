(* C11 -- concurrent writers cannot scramble the wire.
   Model: Model/Conc.v (small-step interleaving semantics of write_frame / open_stream / close at the
   granularity of the scheduling hook points). All theorems quantify over every program list, every
   initial buffering mode and pending buffer, and EVERY schedule (list of task ids of any length). *)
From Coq Require Import List NArith.
From AnyTLS Require Import Bytes Cmd Generated FactsConc Frame Conc ConcInv ConcLin ConcOrder ConcPump.
Import ListNotations.

(* writer-lock discipline in every reachable state: the holder is exactly the task inside its
   critical section, the FIFO queue holds exactly the parked tasks, no duplicates *)
Theorem C11_lock_discipline : forall progs buf pend sched,
  Inv (run (init progs buf pend) sched).
Proof. intros. apply run_inv. apply inv_init. Qed.
Print Assumptions C11_lock_discipline.

Theorem C11_mutual_exclusion : forall progs buf pend sched t1 t2,
  let s := run (init progs buf pend) sched in
  holds_pc (pcof s t1) = true -> holds_pc (pcof s t2) = true -> t1 = t2.
Proof. intros. eapply holder_unique; eauto. apply run_inv. apply inv_init. Qed.
Print Assumptions C11_mutual_exclusion.

(* contiguity: a step changes the wire only by appending one whole burst (pending ++ [frame], taken
   under the lock), and only the lock holder does so *)
Theorem C11_burst_atomic : forall s t s',
  Inv s -> step s t = Some s' ->
  wire s' = wire s \/
  exists k held, pcof s t = PW4 k held /\ wr s = Some t /\ wire s' = wire s ++ [((pkt s + 1)%N, held)].
Proof. exact step_wire. Qed.
Print Assumptions C11_burst_atomic.

(* nothing dropped, duplicated or reordered: while the transport has not failed, the frames on the wire,
   followed by the burst in flight and the pending buffer, are exactly the linearisation log *)
Theorem C11_wire_is_log : forall progs buf pend sched,
  let s := run (init progs buf pend) sched in
  calm s -> flat_wire s ++ inflight s ++ pending s = lin s.
Proof. intros. apply (run_lin_ok sched _ (inv_init progs buf pend) (lin_ok_init progs buf pend)). assumption. Qed.
Print Assumptions C11_wire_is_log.

(* the log is append-only, and a task appends exactly the frame of the write_frame call it is executing:
   since a task executes its calls one after the other, its frames enter the log -- hence the wire -- in the
   order it submitted them; a stream's SYN is logged inside open_stream, before the opener can submit data *)
Theorem C11_log_append_only : forall progs buf pend sched,
  exists l, lin (run (init progs buf pend) sched) = pend ++ l.
Proof. intros. apply (run_lin_grows sched _ (inv_init progs buf pend)). Qed.
Print Assumptions C11_log_append_only.

Theorem C11_linearisation_point : forall s t s',
  Inv s -> step s t = Some s' ->
  lin s' = lin s \/
  exists k f, (pcof s t = PW1 k f \/ pcof s t = PW3 k f) /\ lin s' = lin s ++ [(t, f)].
Proof. intros s t s' _. apply step_lin_point. Qed.
Print Assumptions C11_linearisation_point.

(* per-task order, directly: for every schedule, while the session is open, the frames of task t in the log (hence, by
   C11_wire_is_log, on the wire / in flight / pending, in that order) are exactly the frames t has submitted so far --
   `t_sub`, appended whenever t enters write_frame: the SYN inside open_stream, then its data frames in program
   order -- except the one it is still submitting (`in_hand`) *)
Theorem C11_task_order : forall progs buf pend sched t,
  Forall (fun x => fst x <> t) pend ->
  let s := run (init progs buf pend) sched in
  closed s = false -> mine t (lin s) ++ in_hand (pcof s t) = t_sub (tasks s t).
Proof. exact run_order. Qed.
Print Assumptions C11_task_order.

(* the client's settings frame (buffered by start_client before any other task exists) is the first
   frame of the session *)
Theorem C11_settings_first : forall progs x pend sched,
  let s := run (init progs true (x :: pend)) sched in
  calm s -> forall y rest, flat_wire s = y :: rest -> y = x.
Proof. exact settings_first. Qed.
Print Assumptions C11_settings_first.

(* ordering clause of C05: the n-th burst on the transport was numbered n (so padding line n shaped it) *)
Theorem C11_packet_order : forall progs buf pend sched n i h,
  let s := run (init progs buf pend) sched in
  calm s -> nth_error (wire s) n = Some (i, h) -> i = (client_pkt_start + N.of_nat n + 1)%N.
Proof. exact packet_order. Qed.
Print Assumptions C11_packet_order.

(* the outbound data path of proxied streams (Stream::send_data -> unbounded channel -> forwarding task ->
   write_data_frame): for every program list in which task p does nothing but run the forwarding loop and nobody
   else runs it, every schedule, and as long as the session is open: what p has submitted to write_frame, then the
   chunk it holds, then the channel are -- in this order -- exactly what the applications pushed. Nothing is dropped,
   duplicated or reordered between the application and write_frame; with C11_task_order (p's submissions are, in order,
   p's entries of the log) and C11_wire_is_log (the log is the wire) the chunks of one stream reach the wire in the
   order the application wrote them. *)
Theorem C11_forwarding_fifo : forall p progs buf pend sched,
  p <> rtid -> only_pump (nth p progs []) -> (forall u, u <> p -> ~ In CPump (nth u progs [])) ->
  let s := run (init progs buf pend) sched in
  closed s = false ->
  t_sub (tasks s p) ++ pre_hand (pcof s p) ++ map snd (dq s) = map snd (pushed s).
Proof. intros p progs buf pend sched Hp. exact (pump_fifo p Hp progs buf pend sched). Qed.
Print Assumptions C11_forwarding_fifo.

(* ... and after the stream's SYN: in the linearisation log (= the wire, C11_wire_is_log) every frame logged by the
   forwarding task is preceded by the SYN frame of its stream, and everything still in the channel belongs to a stream
   whose SYN is already logged. The SYN is written directly by open_stream (task u), the data by the forwarding task p:
   this is an ordering ACROSS tasks, obtained from the invariant "a task that holds a stream id is either still inside
   open_stream with that stream's SYN in hand, or the SYN is in the log" (open_ok), the FIFO above and C11_task_order.
   "A stream opened on a brand-new or shared session never has its first data frame overtaken or dropped." *)
Theorem C11_forwarding_syn_first : forall p progs buf pend sched,
  p <> rtid -> only_pump (nth p progs []) -> (forall u, u <> p -> ~ In CPump (nth u progs [])) ->
  Forall (fun x => fst x <> p) pend ->
  let s := run (init progs buf pend) sched in
  closed s = false ->
  (forall l1 l2 f, lin s = l1 ++ (p, f) :: l2 -> exists u, In (u, syn_frame (fsid f)) l1) /\
  (forall u f, In (u, f) (pushed s) -> In (u, syn_frame (fsid f)) (lin s)).
Proof. intros p progs buf pend sched Hp A B C. exact (run_syn_first p Hp progs buf pend sched A B C). Qed.
Print Assumptions C11_forwarding_syn_first.

(* non-vacuity: two openers racing on a fresh session with pre-emption in the middle of both opens *)
Example C11_nonvacuous :
  let progs := [[]; [COpen; CDisableBuf; CData [1]]; [COpen; CDisableBuf; CData [2]]] in
  let settings := (99%nat, {| fcmd := Settings; fsid := 0; fdata := [] |}) in
  let s := run (init progs true [settings])
               [1;1;1;1;1;1;1;2;2;2;2;2;2;2;1;2;1;2;1;2;1;2;1;2;1;2;1;2;1;2]%nat in
  calm s /\ map snd (flat_wire s) =
    [ {| fcmd := Settings; fsid := 0; fdata := [] |}; syn_frame 1; syn_frame 2;
      psh_frame 1 [1]; psh_frame 2 [2] ]%N /\ map fst (wire s) = [1; 2; 3]%N.
Proof. vm_compute. repeat split; reflexivity. Qed.

(* non-vacuity of the forwarding path: a sender opens a stream and pushes two chunks while the forwarding task is
   pre-empted in the middle of writing the first; at the end both are on the wire in order, after the SYN *)
Example C11_forwarding_nonvacuous :
  let progs := [[]; [COpen; CDisableBuf; CSend [1]; CSend [2]]; [CPump; CPump; CPump; CPump]] in
  let sched := [2;1;1;1;1;1;1;1;1;1;1;1;1;2;1;2;2;1;2;2;2;2;2;2;2;2;2;2;2;2;2]%nat in
  let s := run (init progs true []) sched in
  closed s = false /\ map snd (pushed s) = [psh_frame 1 [1]; psh_frame 1 [2]] /\
  map snd (flat_wire s) = [syn_frame 1; psh_frame 1 [1]; psh_frame 1 [2]] /\ dq s = [].
Proof. vm_compute. repeat split. Qed.

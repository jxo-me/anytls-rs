(* C19 -- a padding scheme pushed by the server takes effect on the client: in the session that received it,
   and in every session opened afterwards, for every push in the life of the process.
   Model: Model/Padding.v (proc = BUILTIN_FACTORY + UPDATED_FACTORY of factory.rs, on_update = the
   UpdatePaddingScheme arm, session_padding = Client::session_padding, server_on_announce = the padding-md5 part of
   the server's Settings arm). md5 is a function argument; where "different scheme => different digest" is needed
   its injectivity is a hypothesis of the theorem (satisfiable: the identity; in the correspondence check real MD5). *)
From Coq Require Import List NArith ZArith.
From AnyTLS Require Import Bytes Cmd Generated Frame Text Padding PaddingProcProofs.
Import ListNotations.
Open Scope N_scope.

(* a client announcing a scheme whose text differs from the server's gets the server's raw scheme; receiving it,
   the session switches to it (its packet counter goes on), the process default becomes it, and the session's
   later packets are shaped by it *)
Theorem C19_push_adopted : forall (md5 : bytes -> bytes) raw_srv srv cl p s,
  (forall a b, md5 a = md5 b -> a = b) ->
  factory_new raw_srv = Some srv -> sc_raw cl <> raw_srv -> cs_client s = true ->
  server_on_announce md5 srv (Some (scheme_md5 md5 cl)) = Some raw_srv /\
  on_update p s raw_srv = (proc_with p srv, sess_set_scheme s srv) /\
  cs_scheme (sess_set_scheme s srv) = srv /\ cs_counter (sess_set_scheme s srv) = cs_counter s /\
  proc_default (proc_with p srv) = (srv, proc_with p srv) /\
  (cs_buffering s = false -> forall d e,
     sess_write (sess_set_scheme s srv) d e =
     (let '(r, c') := write_packet (sess_pads s) srv (cs_counter s) d (cs_buffer s ++ e) in
      ({| cs_client := cs_client s; cs_scheme := srv; cs_counter := c'; cs_buffering := false; cs_buffer := [] |},
       Some r))).
Proof.
  intros md5 raw_srv srv cl p s Hinj Hf Hne Hc. pose proof (factory_new_raw _ _ Hf) as Hraw.
  split; [rewrite <- Hraw; apply server_push_differs; [exact Hinj | rewrite Hraw; exact Hne]|].
  split; [apply on_update_adopts; assumption|].
  split; [reflexivity|]. split; [reflexivity|]. split; [reflexivity|].
  intros Hb d e. apply sess_write_after_update. exact Hb.
Qed.
Print Assumptions C19_push_adopted.

(* a session opened after the adoption starts from the pushed scheme, announces its digest, and a server holding
   that scheme text pushes nothing (no assumption on md5 is needed for this direction) *)
Theorem C19_next_session : forall (md5 : bytes -> bytes) raw_srv srv p cl,
  factory_new raw_srv = Some srv ->
  let p' := proc_with p srv in
  let s := sess_new true (session_padding p' cl) in
  cs_scheme s = srv /\ scheme_md5 md5 (cs_scheme s) = md5 raw_srv /\
  server_on_announce md5 srv (Some (scheme_md5 md5 (cs_scheme s))) = None /\
  (forall srv', factory_new raw_srv = Some srv' -> server_on_announce md5 srv' (Some (scheme_md5 md5 (cs_scheme s))) = None).
Proof.
  intros md5 raw_srv srv p cl Hf p' s. pose proof (factory_new_raw _ _ Hf) as Hraw.
  split; [reflexivity|]. split; [unfold scheme_md5; cbn; rewrite Hraw; reflexivity|].
  split; [apply server_push_same; reflexivity|].
  intros srv' Hf'. rewrite Hf in Hf'. injection Hf' as <-. apply server_push_same. reflexivity.
Qed.
Print Assumptions C19_next_session.

(* a pushed scheme the client cannot parse changes nothing: process, session scheme, counter, buffer *)
Theorem C19_unparsable_ignored : forall p s raw, factory_new raw = None -> on_update p s raw = (p, s).
Proof. exact on_update_ignored. Qed.
Print Assumptions C19_unparsable_ignored.

(* every history: h1, then a new session, then h2 -- any number of pushes, sessions, sends and uses of
   PaddingFactory::default(), starting from any process state p0 (built-in default materialised or not, a scheme
   already pushed or not) *)
Theorem C19_any_history : forall h1 h2 p0 cl,
  let w1 := run (world_init p0 cl) h1 in
  let i := length (w_sessions w1) in
  let w := run (step w1 EvNewSession) h2 in
  let start := match adopted_after h1 0 (p_updated p0) with Some f => f | None => cl end in
  p_updated (w_proc w) = adopted_after (h1 ++ EvNewSession :: h2) 0 (p_updated p0) /\
  w_client w = cl /\
  exists s, nth_error (w_sessions w) i = Some s /\ cs_client s = true /\
            cs_scheme s = scheme_after h2 i start.
Proof.
  intros h1 h2 p0 cl w1 i w start.
  pose proof (run_inv h1 (world_init p0 cl) ltac:(constructor)) as T1. fold w1 in T1.
  pose proof (step_inv w1 EvNewSession (proj1 T1)) as T2.
  pose proof (run_inv h2 (step w1 EvNewSession) (proj1 T2)) as T3. fold w in T3.
  destruct (tracks_app _ _ _ _ _ T1 (tracks_app [EvNewSession] _ _ _ _ T2 T3)) as (_ & C & U & _).
  split; [exact U|]. split; [exact C|].
  destruct T1 as (_ & C1 & U1 & _). destruct T3 as (A3 & _ & _ & _ & S3).
  (* the session opened after h1 starts from the scheme adopted so far *)
  destruct (S3 i (sess_new true (session_padding (w_proc w1) (w_client w1)))) as (s & Hn & Hs).
  { cbn [step w_sessions]. unfold i. rewrite nth_error_app2, Nat.sub_diag by apply le_n. reflexivity. }
  exists s. split; [exact Hn|]. split.
  - unfold all_clients in A3. rewrite Forall_forall in A3. eapply A3, nth_error_In, Hn.
  - rewrite Hs. cbn [sess_new cs_scheme]. unfold session_padding. rewrite U1, C1. reflexivity.
Qed.
Print Assumptions C19_any_history.

(* reading of the specification functions: the last parsable push to an open session is the adopted scheme ... *)
Theorem C19_last_push_wins : forall h i raw f n cur,
  (i < n + count_new h)%nat -> factory_new raw = Some f ->
  adopted_after (h ++ [EvPush i raw]) n cur = Some f.
Proof. exact last_push_wins. Qed.
Print Assumptions C19_last_push_wins.

(* ... an unparsable one leaves it as it was, and uses of the built-in default never matter *)
Theorem C19_default_irrelevant : forall h1 h2 i raw n cur,
  (factory_new raw = None -> adopted_after (h1 ++ [EvPush i raw]) n cur = adopted_after h1 n cur) /\
  adopted_after (h1 ++ EvDefault :: h2) n cur = adopted_after (h1 ++ h2) n cur.
Proof. intros. split; [apply unparsable_push_keeps | apply default_use_irrelevant]. Qed.
Print Assumptions C19_default_irrelevant.

(* non-vacuity: the built-in default is materialised first (as the client binary does), the client was built from
   it, a session is opened, the server pushes "stop=2\n1=50-50", a second session is opened, junk is pushed *)
Example C19_nonvacuous :
  let raw := [115;116;111;112;61;50;10;49;61;53;48;45;53;48] in
  let h1 := [EvDefault; EvNewSession; EvPush 0 raw] in
  let h2 := [EvPush 1 [106;117;110;107]; EvSend 1 [] [2;0;0;0;1;0;0]] in
  exists f, factory_new raw = Some f /\ f <> builtin_scheme /\
    factory_new [106;117;110;107] = None /\
    let w := run (step (run (world_init proc_init builtin_scheme) h1) EvNewSession) h2 in
    p_updated (w_proc w) = Some f /\
    map cs_scheme (w_sessions w) = [f; f] /\
    w_out w = [(1%nat, Writes [[2;0;0;0;1;0;0] ++ waste 36])].
Proof.
  cbv zeta. eexists. split; [vm_compute; reflexivity|].
  split; [intros H; apply (f_equal sc_stop) in H; vm_compute in H; discriminate|].
  split; [vm_compute; reflexivity|]. split; [vm_compute; reflexivity|]. split; vm_compute; reflexivity.
Qed.

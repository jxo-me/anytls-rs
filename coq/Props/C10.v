(* C10 -- opening a stream reports the server's verdict exactly once.
   The opener of stream sid (client.rs create_proxy_stream) waits on the one-shot slot of its stream object
   with a 30 s timer; `crun` runs any history of events (frames dispatched, local close, transport end,
   timers of any opener) and polls the opener after each; `expect` is the specification written from the
   property text: the first event among {SYNACK for sid while sid is registered (empty payload = success,
   otherwise the server's reason), end of the session while sid is registered, sid's own timer} decides, and
   nothing after it -- later, duplicated or foreign-id events -- changes the outcome.
   (An id that was taken out of the tables by a FIN before any verdict is no longer resolved by SYNACK or by
   the end of the session: its opener gets the timeout error.  Recorded by `expect`, reg = false.) *)
From Coq Require Import List NArith ZArith.
From AnyTLS Require Import Bytes Cmd Generated Frame Reader Session FrameProofs
  SessTable SessHandle SessRecv SessOpen.
Import ListNotations.
Import Sess.
Open Scope N_scope.

Theorem C10_exactly_once : forall c sid es st,
  cfg_ok c -> is_client c = true ->
  ((reg_inv st sid /\ alive_of st = true) \/ unreg_inv st sid) ->
  snd (crun c sid (st, Waiting) es) =
  expect sid (match lookup sid (tbl st) with Some _ => true | None => false end) (alive_of st) es.
Proof. intros c sid es st Hok Hcl H. exact (crun_expect c sid es st Hok Hcl (open_pending_intro st sid H)). Qed.
Print Assumptions C10_exactly_once.

(* once the opener has its outcome no further history changes it (model and specification) *)
Theorem C10_no_second_outcome : forall c sid es st o es1 reg alive es2,
  snd (crun c sid (st, Done o) es) = Done o /\
  (expect sid reg alive es1 = Done o -> expect sid reg alive (es1 ++ es2) = Done o).
Proof. intros. split; [apply crun_done | apply expect_done_stable]. Qed.
Print Assumptions C10_no_second_outcome.

(* the hypotheses of C10_exactly_once hold right after open_stream on a live session for a fresh id *)
Theorem C10_open_registers : forall st st' o sid,
  lookup (next_id st) (tbl st) = None -> only (next_id st) (gone st) = [] ->
  open st = (st', o, Some sid) ->
  sid = next_id st /\ reg_inv st' sid /\ alive_of st' = alive_of st /\ s_closed st = false /\
  o = [Send (mk Syn sid [])].
Proof.
  intros st st' o sid Hl Hg H. unfold open in H. destruct (s_closed st) eqn:Ec; [discriminate|].
  injection H as <- <- <-. unfold install, detach. rewrite Hl.
  split; [reflexivity|]. split; [exists fresh; cbn [tbl gone with_tbl]; rewrite lookup_insert_eq; auto|].
  repeat split.
Qed.
Print Assumptions C10_open_registers.

(* server half: SYNACK(ok) only after a successful dial (the UDP-over-TCP pseudo destination has no dial),
   SYNACK(text) only after a failed or timed-out one, nothing for a peer below version 2, and never any
   other frame; the peer version only moves by a Settings frame carrying v >= 2 *)
Theorem C10_success_after_dial : forall st sid d,
  s_closed st = false -> dial_wf d ->
  (In (Send (mk SynAck sid [])) (serve_open st sid d) <-> (2 <= peer_version st /\ (d = DialOk \/ d = DialUdp))) /\
  (forall m, m <> [] -> In (Send (mk SynAck sid m)) (serve_open st sid d) <->
                        (2 <= peer_version st /\ (d = DialFail m \/ d = DialTimeout m))) /\
  (peer_version st < 2 -> serve_open st sid d = []) /\
  (forall o, In o (serve_open st sid d) -> exists m, o = Send (mk SynAck sid m)).
Proof. exact success_after_dial. Qed.
Print Assumptions C10_success_after_dial.

Theorem C10_peer_version : forall c st f,
  peer_version (fst (handle c st f)) <> peer_version st ->
  (fcmd f = Settings /\ is_client c = false /\ 2 <= peer_version (fst (handle c st f))) \/
  (fcmd f = ServerSettings /\ is_client c = true).
Proof.
  intros c st f H. destruct (alert_dec f) as [Ha|Hna].
  - elim H. rewrite (handle_alert c st f Ha). unfold close. destruct (s_closed st); reflexivity.
  - destruct (handle_peer_version c st f Hna) as [Hp|Hp]; [contradiction | exact Hp].
Qed.
Print Assumptions C10_peer_version.

(* front-ends: 'succeeded' / '200' only when the open succeeded, every other outcome is answered with the
   failure reply and nothing else, and no application byte is forwarded unless the open succeeded (for
   SOCKS5 and CONNECT: not before the success reply) *)
Theorem C10_front_end : forall fe o early app,
  (In ReplyOk (front_end fe o early app) -> o = OOk) /\
  (forall x, In (ToStream x) (front_end fe o early app) -> o = OOk) /\
  (o <> OOk -> front_end fe o early app = [ReplyFail]) /\
  (o = OOk -> fe <> HttpPlain -> front_end fe o early app = ReplyOk :: map ToStream app).
Proof.
  intros fe o early app. unfold front_end. destruct o.
  1: { (* the open succeeded: only the last clause says anything *)
    repeat split; try congruence. intros _ Hfe. destruct fe; congruence. }
  (* it did not: the list is [ReplyFail], which holds neither ReplyOk nor a ToStream *)
  all: repeat split; try congruence; [intros [H|[]] | intros x [H|[]]]; discriminate.
Qed.
Print Assumptions C10_front_end.

(* non-vacuity: open on a fresh client; a foreign SYNACK, a PSH, then SYNACK(error), then a late SYNACK(ok),
   a close and the timer: the outcome is the server's reason, once *)
Example C10_nonvacuous :
  let c := {| c_role := Client; c_md5 := []; c_scheme := [] |} in
  let '(st, _, _) := open (init_sess c) in
  let es := [EFrame (mk SynAck 2 []); EFrame (mk Push 1 [5]); ETimeout 2; EFrame (mk SynAck 1 [110; 111]);
             EFrame (mk SynAck 1 []); EClose; ETimeout 1] in
  cfg_ok c /\ is_client c = true /\ reg_inv st 1 /\ alive_of st = true /\
  snd (crun c 1 (st, Waiting) es) = Done (OErr [110; 111]) /\
  snd (crun c 1 (st, Waiting) [EFrame (mk Fin 1 []); EFrame (mk SynAck 1 []); EEof; ETimeout 1]) = Done OTimeout /\
  snd (crun c 1 (st, Waiting) [EFrame (mk Alert 0 [33]); EFrame (mk SynAck 1 [])]) = Done OClosed.
Proof.
  vm_compute. split; [discriminate|]. split; [reflexivity|]. split; [eexists; repeat split|]. repeat split.
Qed.

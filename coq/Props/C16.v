(* C16 -- the SOCKS5 front-end follows the protocol for every client byte stream.
   open_ok d p is the verdict of the tunnel open for destination (d, p) (C10): an explicit oracle. *)
From Coq Require Import List NArith ZArith.
From AnyTLS Require Import Bytes Reader ReaderProg Generated Dest Socks5 ReaderProofs DestProofs SocksProofs.
Import ListNotations.
Open Scope N_scope.

(* 'no authentication' is selected exactly when it was offered; otherwise 'no acceptable methods' and
   the connection ends; nothing is written before the greeting is complete *)
Theorem C16_method : forall open_ok b,
  match run_bytes greeting_prog b with
  | NeedMore => socks_session open_ok b = []
  | Reject _ => socks_session open_ok b = [SEnd]
  | Accept ms r =>
      (In 0 ms /\ socks_session open_ok b = SWrite [5; 0] :: socks_after_greeting open_ok r) \/
      (~ In 0 ms /\ socks_session open_ok b = [SWrite [5; 255]; SEnd])
  end.
Proof. exact session_cases. Qed.
Print Assumptions C16_method.

Theorem C16_method_only_offered : forall open_ok b tl,
  socks_session open_ok b = SWrite [5; 0] :: tl ->
  exists ms r, run_bytes greeting_prog b = Accept ms r /\ In 0 ms.
Proof. exact session_selects_only_offered. Qed.
Print Assumptions C16_method_only_offered.

Theorem C16_greeting_roundtrip : forall ms rest, lenN ms <= 255 ->
  run_bytes greeting_prog ([5; lenN ms] ++ ms ++ rest) = Accept ms rest.
Proof. intros ms rest _. apply greeting_ok. Qed.
Print Assumptions C16_greeting_roundtrip.

(* exactly the requested command, address type, address and port are extracted, for IPv4, IPv6 and
   every name of 1..255 bytes, every port, every command and reserved byte *)
Theorem C16_request_roundtrip : forall rsv q rest,
  wf_dest (q_dest q) -> q_port q < 65536 ->
  run_bytes request_prog (request_wire rsv q ++ rest) = Accept q rest.
Proof. exact request_roundtrip. Qed.
Print Assumptions C16_request_roundtrip.

(* a tunnel is opened only for CONNECT and only to the (address, port) of the request ... *)
Theorem C16_connect_only : forall open_ok b d p,
  In (SOpen d p) (socks_session open_ok b) ->
  exists ms r q r2, run_bytes greeting_prog b = Accept ms r /\ In 0 ms /\
    run_bytes request_prog r = Accept q r2 /\ q_cmd q = 1 /\ d = q_dest q /\ p = q_port q.
Proof. exact session_connect_only. Qed.
Print Assumptions C16_connect_only.

(* ... every other command is answered 'command not supported' (7) and the connection ends *)
Theorem C16_other_command : forall open_ok b ms r q r2,
  run_bytes greeting_prog b = Accept ms r -> In 0 ms ->
  run_bytes request_prog r = Accept q r2 -> q_cmd q <> 1 ->
  socks_session open_ok b = [SWrite [5; 0]; SWrite (reply_bytes 7); SEnd].
Proof. exact session_other_command. Qed.
Print Assumptions C16_other_command.

(* REP = 0 is written iff the open for exactly the requested destination succeeded, and then the
   session is: selection, open, 'succeeded', forwarding of everything that followed the request *)
Theorem C16_reply : forall open_ok b w,
  In (SWrite w) (socks_session open_ok b) -> lenN w = 10 ->
  (reply_rep w = 0 <->
   exists ms r q r2, run_bytes greeting_prog b = Accept ms r /\ run_bytes request_prog r = Accept q r2 /\
     q_cmd q = 1 /\ open_ok (q_dest q) (q_port q) = true /\
     socks_session open_ok b = [SWrite [5; 0]; SOpen (q_dest q) (q_port q); SWrite (reply_bytes 0); STunnel r2]).
Proof. exact session_reply. Qed.
Print Assumptions C16_reply.

Theorem C16_tunnel_after_success : forall open_ok b f,
  In (STunnel f) (socks_session open_ok b) ->
  exists d p, socks_session open_ok b = [SWrite [5; 0]; SOpen d p; SWrite (reply_bytes 0); STunnel f] /\
              open_ok d p = true.
Proof. exact session_tunnel_after_success. Qed.
Print Assumptions C16_tunnel_after_success.

(* fragmentation: over any split of the client's bytes into TCP segments the session is the one
   computed on their concatenation (half-closed: every incomplete message ends the connection) *)
Theorem C16_fragmentation : forall open_ok chunks closed,
  socks_session_rd open_ok chunks closed =
    if closed then socks_session_eof open_ok (concat chunks) else socks_session open_ok (concat chunks).
Proof. exact session_rd_eq. Qed.
Print Assumptions C16_fragmentation.

(* prefix stability: both parsers' answers are final; an ended connection stays ended and silent;
   an established tunnel only forwards *)
Theorem C16_prefix_stable : forall b m,
  (run_bytes greeting_prog b <> NeedMore ->
   run_bytes greeting_prog (b ++ m) = match run_bytes greeting_prog b with Accept v r => Accept v (r ++ m) | x => x end) /\
  (run_bytes request_prog b <> NeedMore ->
   run_bytes request_prog (b ++ m) = match run_bytes request_prog b with Accept v r => Accept v (r ++ m) | x => x end).
Proof.
  intros b m. split; [exact (run_bytes_prefix_stable greeting_prog b m) | exact (run_bytes_prefix_stable request_prog b m)].
Qed.
Print Assumptions C16_prefix_stable.

Theorem C16_ended_stable : forall open_ok b m,
  In SEnd (socks_session open_ok b) -> socks_session open_ok (b ++ m) = socks_session open_ok b.
Proof. exact session_ended_stable. Qed.
Print Assumptions C16_ended_stable.

Theorem C16_tunnel_stable : forall open_ok b m pre f,
  socks_session open_ok b = pre ++ [STunnel f] ->
  socks_session open_ok (b ++ m) = pre ++ [STunnel (f ++ m)].
Proof. exact session_tunnel_stable. Qed.
Print Assumptions C16_tunnel_stable.

Example C16_nonvacuous :
  let connect := [5; 2; 2; 0; 5; 1; 0; 3; 2; 97; 98; 1; 187; 71; 69] in
  socks_session (fun _ _ => true) connect =
    [SWrite [5; 0]; SOpen (DName [97; 98]) 443; SWrite (reply_bytes 0); STunnel [71; 69]] /\
  socks_session_rd (fun _ _ => false) [[5]; [2; 2]; [0; 5; 1]; []; [0; 3; 2; 97]; [98; 1; 187; 71; 69]] false =
    [SWrite [5; 0]; SOpen (DName [97; 98]) 443; SWrite (reply_bytes 1); SEnd] /\
  socks_session (fun _ _ => true) [5; 1; 0; 5; 3; 0; 1; 10; 0; 0; 1; 0; 53] = [SWrite [5; 0]; SWrite (reply_bytes 7); SEnd] /\
  socks_session (fun _ _ => true) [5; 2; 1; 2] = [SWrite [5; 255]; SEnd] /\
  wf_dest (DName [97; 98]).
Proof. cbv zeta. repeat split; vm_compute; try reflexivity; discriminate. Qed.

(* C01 -- every stream is a lossless, ordered, exact byte pipe.
   Setting of the statements:
     sender    : any session state that is not closed; `wops` = the data submissions (any chunk sizes,
                 0 and > 65535 included) in the order in which they reach write_data_frame -- a merge of the
                 per-stream submission orders, which is what all interleavings of writer tasks and of the
                 forwarding task reduce to (C11) -- mixed with arbitrary control frames;
     padding   : `w` is ANY byte string whose decoded frames, Waste frames deleted, are the submitted frames
                 (the conclusion of C04_wellformed for every scheme and every draw; a session never submits a
                 Waste frame itself, so `not_padding f := fcmd f <> Waste` loses nothing);
     transport : `ops` interleaves transport reads `ORecv chunk` (any fragmentation of w or of a prefix of w)
                 with application reads `ORead sid k cap` on any stream object with any capacity > 0;
     receiver  : any live session state in which stream b is registered with a fresh queue.
   `quiet_for cR b` = among the submitted frames there is no Alert and no FIN / (server side) SYN for b,
   i.e. the stream and the session stay up while the data flows; how a stream ENDS is C01_complete_at_end
   (session end) and C08_fin_after_data (FIN).
   The hypotheses about sender, wire and receiver are Proofs/SessPipe.pipe_setup; the theorems below are the
   instances of pipe_main, pipe_end and of the tunnel lemmas of Proofs/RelayProofs.v. *)
From Coq Require Import List NArith ZArith.
From AnyTLS Require Import Bytes Cmd Generated Frame Reader Session FrameProofs ReaderProofs
  SessTable SessHandle SessRecv SessPipe SessionLegacy Text Padding PaddingProofs PipePadded
  Relay RelayProofs.
Import ListNotations.
Import Sess.
Open Scope N_scope.

(* nothing lost, duplicated, altered or reordered: at every point, and in particular once the whole wire
   has been read, delivered ++ still-queued (++ not yet arrived) = written; a reader that is answered
   `Pending` after the whole wire arrived has received all of it *)
Theorem C01_pipe : forall cR stR b s w gs ops stS wops rest,
  s_closed stS = false ->
  decode_all w = (gs, []) ->
  filter not_padding gs = sent_frames (run_wops stS wops) ->
  quiet_for cR b (sent_frames (run_wops stS wops)) ->
  cfg_ok cR -> wf_sess stR -> s_closed stR = false -> dead stR = false ->
  lookup b (tbl stR) = Some s -> rd s = rd_init ->
  concat (recv_chunks ops) ++ rest = w -> caps_pos ops ->
  let '(stR', _, lg) := run_rops cR stR [] ops in
  exists s' later, lookup b (tbl stR') = Some s' /\ rd_open (rd s') /\
    delivered b (length (only b (gone stR))) lg ++ rd_pending_bytes (rd s') ++ later = written b wops /\
    saw_eof b (length (only b (gone stR))) lg = false /\
    (rest = [] -> later = []) /\
    s_closed stR' = false /\ dead stR' = false /\ sclosed s' = sclosed s.
Proof.
  intros cR stR b s w gs ops stS wops rest H1 H2 H3 H4 H5 H6 H7 H8 H9 H10 Hw Hcaps.
  pose proof (pipe_main cR stR b s w gs stS wops ltac:(constructor; assumption) ops rest Hw Hcaps) as H.
  destruct (run_rops cR stR [] ops) as [[stR' c'] lg].
  destruct H as (s' & later & A1 & A2 & A3 & A4 & A5 & A6 & A7 & A8 & _).
  exists s', later. auto 10.
Qed.
Print Assumptions C01_pipe.

(* C01 composed with C04: for EVERY padding scheme the parser accepts, every grouping `pk` of the submitted
   frames into packets (write_frame sends pending ++ [frame] as one packet), every packet counter and all draws
   inside the ranges (pkts_ok), padded (client) or plain (server): the bursts the sender puts on the transport
   form a wire for which the pipe statement holds, under every fragmentation and every read schedule *)
Theorem C01_padded : forall pads sc (pk : list (list Z * list frame)) c cR stR b s stS wops,
  s_closed stS = false ->
  concat (map snd pk) = sent_frames (run_wops stS wops) ->
  Forall (fun dfs => frames_ok (snd dfs)) pk ->
  pkts_ok pads sc c (to_pkts pk) ->
  Forall (fun dfs => Forall (fun f => not_padding f = true) (snd dfs)) pk ->
  quiet_for cR b (sent_frames (run_wops stS wops)) ->
  cfg_ok cR -> wf_sess stR -> s_closed stR = false -> dead stR = false ->
  lookup b (tbl stR) = Some s -> rd s = rd_init ->
  exists bursts,
    run_packets pads sc c (to_pkts pk) = map Writes bursts /\
    forall ops rest,
      concat (recv_chunks ops) ++ rest = concat (map (@concat N) bursts) -> caps_pos ops ->
      let '(stR', _, lg) := run_rops cR stR [] ops in
      exists s' later, lookup b (tbl stR') = Some s' /\ rd_open (rd s') /\
        delivered b (length (only b (gone stR))) lg ++ rd_pending_bytes (rd s') ++ later = written b wops /\
        saw_eof b (length (only b (gone stR))) lg = false /\
        (rest = [] -> later = []) /\
        s_closed stR' = false /\ dead stR' = false /\ sclosed s' = sclosed s.
Proof.
  intros pads sc pk c cR stR b s stS wops Hs Hpk Hf Hok Hn Hq Hc Hw Hsc Hd Hl Hr.
  destruct (padded_wire_ok pads sc pk c Hf Hok Hn) as (bursts & gs & E & D & F).
  exists bursts. split; [exact E|]. intros ops rest Hops Hcaps.
  apply (C01_pipe cR stR b s (concat (map (@concat N) bursts)) gs ops stS wops rest); auto.
  rewrite F. exact Hpk.
Qed.
Print Assumptions C01_padded.

(* while the stream is open the reader has always seen a prefix of what was written, and is never told Eof *)
Theorem C01_prefix : forall cR stR b s w gs ops stS wops rest,
  s_closed stS = false ->
  decode_all w = (gs, []) ->
  filter not_padding gs = sent_frames (run_wops stS wops) ->
  quiet_for cR b (sent_frames (run_wops stS wops)) ->
  cfg_ok cR -> wf_sess stR -> s_closed stR = false -> dead stR = false ->
  lookup b (tbl stR) = Some s -> rd s = rd_init ->
  concat (recv_chunks ops) ++ rest = w -> caps_pos ops ->
  let '(_, _, lg) := run_rops cR stR [] ops in
  (exists more, delivered b (length (only b (gone stR))) lg ++ more = written b wops) /\
  saw_eof b (length (only b (gone stR))) lg = false.
Proof.
  intros cR stR b s w gs ops stS wops rest H1 H2 H3 H4 H5 H6 H7 H8 H9 H10.
  apply (pipe_prefix cR stR b s w gs stS wops). constructor; assumption.
Qed.
Print Assumptions C01_prefix.

(* a reader that is answered Pending after the whole wire arrived holds everything that was written *)
Theorem C01_pending_means_all : forall r cap r',
  rd_open r -> 0 < cap -> rd_read r cap = (r', RPending) -> rd_pending_bytes r = [].
Proof.
  intros r cap r' Hop _ H. destruct (rd_read_spec r cap (rd_open_wf r Hop)) as (r2 & res & Hr & _ & _ & Hres).
  rewrite Hr in H. injection H as _ ->. apply Hres.
Qed.
Print Assumptions C01_pending_means_all.

(* when the stream ends because the session ends, the reader obtains the rest and only then Eof *)
Theorem C01_complete_at_end : forall cR stR b s w gs ops stS wops,
  s_closed stS = false ->
  decode_all w = (gs, []) ->
  filter not_padding gs = sent_frames (run_wops stS wops) ->
  quiet_for cR b (sent_frames (run_wops stS wops)) ->
  cfg_ok cR -> wf_sess stR -> s_closed stR = false -> dead stR = false ->
  lookup b (tbl stR) = Some s -> rd s = rd_init ->
  concat (recv_chunks ops) = w -> caps_pos ops ->
  let '(stR', _, lg) := run_rops cR stR [] ops in
  let stE := fst (recv_eof stR') in
  tbl stE = [] /\
  exists sf, only b (gone stE) = only b (gone stR') ++ [sf] /\
    forall caps, Forall (fun cap => 0 < cap) caps ->
      let '(_, got, e) := rd_read_script (rd sf) caps in
      (exists rest, delivered b (length (only b (gone stR))) lg ++ got ++ rest = written b wops) /\
      (e = true -> delivered b (length (only b (gone stR))) lg ++ got = written b wops).
Proof.
  intros cR stR b s w gs ops stS wops H1 H2 H3 H4 H5 H6 H7 H8 H9 H10.
  apply (pipe_end cR stR b s w gs stS wops). constructor; assumption.
Qed.
Print Assumptions C01_complete_at_end.

(* a read returns Eof only after the queue was closed, and only once everything pushed before has been
   returned (rd_wf holds for every reader state of the model: rd_open_wf, rd_wf_close, rd_read_spec) *)
Theorem C01_no_spurious_eof : forall r cap r',
  rd_wf r -> rd_read r cap = (r', REof) -> rclosed r = true /\ rd_pending_bytes r = [].
Proof.
  intros r cap r' Hwf H. destruct (rd_read_spec r cap Hwf) as (r2 & res & Hr & _ & _ & Hres).
  rewrite Hr in H. injection H as _ ->. split; apply Hres.
Qed.
Print Assumptions C01_no_spurious_eof.

(* the sender's half in isolation: splitting loses nothing and every frame fits the 16-bit length field *)
Theorem C01_split : forall sid d,
  concat (split_chunk d) = d /\
  Forall (fun f => fcmd f = Push /\ fsid f = sid /\ lenN (fdata f) <= max_payload) (data_frames sid d).
Proof. intros sid d. split; [apply concat_split_chunk | apply data_frames_ok]. Qed.
Print Assumptions C01_split.

(* any fragmentation of the transport bytes dispatches the same frames in the same order *)
Theorem C01_fragmentation : forall c chunks st carry,
  cd_inv st -> decode1_raw carry = None ->
  let '(st', carry', o) := recv_all c st carry chunks in
  (st', o) = handle_all c st (fst (decode_all (carry ++ concat chunks))) /\
  (dead st' = false -> carry' = snd (decode_all (carry ++ concat chunks))).
Proof. exact recv_all_spec. Qed.
Print Assumptions C01_fragmentation.

(* the pinned (pre-fix) data path violates the property: machine-checked witnesses *)
Theorem C01_refuted_big_legacy : exists chunks, pipe_legacy 1 chunks <> concat chunks.
Proof. exact C01_refuted_big. Qed.
Theorem C01_refuted_empty_legacy : exists chunks, reader_legacy chunks <> concat chunks.
Proof. exact C01_refuted_empty. Qed.

(* non-vacuity: a server session with stream 1 registered, a sender writing 3 chunks (one empty) mixed with
   a control frame, a wire with an inserted padding frame, cut into 3 fragments with a cut inside a header,
   reads of capacity 2 interleaved: all hypotheses hold and the bytes come out *)
Example C01_nonvacuous :
  let cR := {| c_role := Server; c_md5 := []; c_scheme := [] |} in
  let cS := {| c_role := Client; c_md5 := []; c_scheme := [] |} in
  let stR := fst (handle cR (init_sess cR) (mk Syn 1 [])) in
  let stS := init_sess cS in
  let wops := [WData 1 [1; 2; 3]; WCtrl (mk HeartRequest 0 []); WData 1 []; WData 1 [4]] in
  let sent := sent_frames (run_wops stS wops) in
  let w := encode_raw (raw_of (mk Push 1 [1; 2; 3])) ++ encode_raw (raw_of (mk Waste 0 [0; 0])) ++
           concat (map encode_raw (map raw_of (skipn 1 sent))) in
  let ops := [ORecv (firstn 3 w); ORead 1 0 2; ORecv (firstn 9 (skipn 3 w)); ORead 1 0 2; ORead 1 0 2;
              ORecv (skipn 12 w); ORead 1 0 2; ORead 1 0 2] in
  s_closed stS = false /\ snd (decode_all w) = [] /\
  filter not_padding (fst (decode_all w)) = sent /\
  quiet_for cR 1 sent /\ cfg_ok cR /\ wf_sess stR /\ s_closed stR = false /\ dead stR = false /\
  (exists s, lookup 1 (tbl stR) = Some s /\ rd s = rd_init) /\
  concat (recv_chunks ops) = w /\ caps_pos ops /\
  (let '(_, _, lg) := run_rops cR stR [] ops in delivered 1 0 lg) = [1; 2; 3; 4] /\
  written 1 wops = [1; 2; 3; 4].
Proof.
  (* the statement is closed: computed as a whole, every clause is an equation between equal literals or a list of
     decided tests *)
  vm_compute.
  split; [reflexivity|]. split; [reflexivity|]. split; [reflexivity|].
  split; [repeat constructor; discriminate|].
  split; [discriminate|].
  split; [repeat constructor; intros []|].
  split; [reflexivity|]. split; [reflexivity|].
  split; [eexists; split; reflexivity|].
  split; [reflexivity|].
  split; [repeat constructor|].
  split; reflexivity.
Qed.

(* the relays at the two ends of a tunnel
   (Model/Relay.v: the six copy loops of server/handler.rs, client/socks5.rs, client/http_proxy.rs).
   A loop with a buffer of ANY size, whatever earlier iterations left in it, hands its sink exactly the chunks it
   read, whole and in order, up to the first end of input / read error / refused write *)
Theorem C01_relay_exact : forall cap es, relay cap es = relay_spec es.
Proof. exact relay_exact. Qed.
Print Assumptions C01_relay_exact.

Theorem C01_relay_prefix_and_complete : forall es,
  (exists rest, concat (relay_spec es) ++ rest = source_bytes es) /\
  (ran_to_eof es = true -> concat (relay_spec es) = source_bytes es) /\
  Forall (fun c => c <> []) (relay_spec es).
Proof. intros es. exact (conj (relay_spec_prefix es) (conj (relay_spec_complete es) (relay_spec_nonempty es))). Qed.
Print Assumptions C01_relay_prefix_and_complete.

(* a chunk handed to write_data_frame / send_data by a relay never exceeds the relay's buffer *)
Theorem C01_relay_chunks_fit : forall cap es, reads_fit cap es ->
  Forall (fun c => lenN c <= cap) (relay cap es) /\ lenN (lbuf (lp_run (lp_init cap) es)) = cap.
Proof. intros cap es H. rewrite relay_exact. exact (conj (relay_spec_fit cap es H) (relay_buffer_bounded cap es H)). Qed.
Print Assumptions C01_relay_chunks_fit.

(* Stream::send_data + the forwarding task: the queued chunks become the same submissions in the same order *)
Theorem C01_forwarding_task_submits_queue : forall st, s_closed st = false ->
  snd (pump_all st) = run_wops st (wops_of_queue (sendq st)).
Proof. intros st H. apply (pump_n_wops (length (sendq st)) st H eq_refl). Qed.
Print Assumptions C01_forwarding_task_submits_queue.

Theorem C01_relay_submissions : forall b ops cs, merge_ok b cs ops -> written b ops = concat cs.
Proof. exact written_of_merge. Qed.
Print Assumptions C01_relay_submissions.

(* END TO END, either direction: source --relay(es1)--> submissions of stream b --[session pipe: any padded
   wire, any fragmentation, any read schedule with capacities > 0]--> reader of b --relay(write results ws)-->
   sink.  Whatever the sink has received is a prefix of what the source produced ... *)
Theorem C01_tunnel_prefix : forall capC capS es1 ws cR stR b s w gs ops stS wops rest,
  written b wops = concat (relay capC es1) ->
  s_closed stS = false ->
  decode_all w = (gs, []) ->
  filter not_padding gs = sent_frames (run_wops stS wops) ->
  quiet_for cR b (sent_frames (run_wops stS wops)) ->
  cfg_ok cR -> wf_sess stR -> s_closed stR = false -> dead stR = false ->
  lookup b (tbl stR) = Some s -> rd s = rd_init ->
  concat (recv_chunks ops) ++ rest = w -> caps_pos ops ->
  let '(_, _, lg) := run_rops cR stR [] ops in
  exists missing, to_target capS b (length (only b (gone stR))) lg ws ++ missing = source_bytes es1.
Proof.
  intros capC capS es1 ws cR stR b s w gs ops stS wops rest Hw H1 H2 H3 H4 H5 H6 H7 H8 H9 H10.
  apply (tunnel_upload_prefix capC capS es1 ws cR stR b s w gs stS wops); [constructor|]; assumption.
Qed.
Print Assumptions C01_tunnel_prefix.

(* ... and once the source has ended, the whole wire has arrived and the reader has drained its queue, a sink
   that accepted every write has received all of it *)
Theorem C01_tunnel_complete : forall capC capS es1 cR stR b s w gs ops stS wops,
  written b wops = concat (relay capC es1) -> ran_to_eof es1 = true ->
  s_closed stS = false ->
  decode_all w = (gs, []) ->
  filter not_padding gs = sent_frames (run_wops stS wops) ->
  quiet_for cR b (sent_frames (run_wops stS wops)) ->
  cfg_ok cR -> wf_sess stR -> s_closed stR = false -> dead stR = false ->
  lookup b (tbl stR) = Some s -> rd s = rd_init ->
  concat (recv_chunks ops) = w -> caps_pos ops ->
  let '(stR', _, lg) := run_rops cR stR [] ops in
  forall s', lookup b (tbl stR') = Some s' -> rd_pending_bytes (rd s') = [] ->
  to_target capS b (length (only b (gone stR))) lg [] = source_bytes es1.
Proof.
  intros capC capS es1 cR stR b s w gs ops stS wops Hw He H1 H2 H3 H4 H5 H6 H7 H8 H9 H10.
  apply (tunnel_upload_complete capC capS es1 cR stR b s w gs stS wops); [constructor|..]; assumption.
Qed.
Print Assumptions C01_tunnel_complete.

(* non-vacuity of the relay statements: a 4-byte buffer, a long read, then a short one over the stale tail, a
   refused write: the sink got [1;2;3;4] and [5] -- not [5;2;3;4] -- and nothing after the refusal *)
Example C01_relay_nonvacuous :
  let es := [(GotN [1; 2; 3; 4], WrOk); (GotN [5], WrOk); (GotN [6; 7], WrErr); (GotN [8], WrOk)] in
  relay 4 es = [[1; 2; 3; 4]; [5]] /\ lbuf (lp_run (lp_init 4) es) = [6; 7; 3; 4] /\
  source_bytes es = [1; 2; 3; 4; 5; 6; 7; 8] /\ reads_fit 4 es /\
  ran_to_eof [(GotN [1], WrOk); (GotEof, WrOk)] = true.
Proof.
  cbv zeta. split; [vm_compute; reflexivity|]. split; [vm_compute; reflexivity|]. split; [reflexivity|].
  split; [|reflexivity]. unfold reads_fit. repeat constructor; vm_compute; discriminate.
Qed.

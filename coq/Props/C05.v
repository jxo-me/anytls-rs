(* C05 -- early client packets are shaped as the scheme prescribes; the server never pads; no padding from
   packet `stop` on.  Model: Model/Padding.v; `accepts` is the reference acceptor written from the property text
   (range based, no knowledge of the draws). *)
From Coq Require Import List NArith ZArith.
From AnyTLS Require Import Bytes Cmd Generated Frame Text Padding PaddingProofs.
From AnyTLS Require Conc ConcLin.
Import ListNotations.
Open Scope N_scope.

(* part (d), ordering under concurrent writers: on the interleaving model of the write path (Model/Conc.v), for
   ALL programs and ALL schedules, while the transport has not failed the n-th burst that reaches the transport
   was numbered client_pkt_start + n + 1 -- so, by C05_index / C05_packet below, line n+1 of the scheme shaped it *)
Theorem C05_order : forall progs buf pend sched n i h,
  let s := Conc.run (Conc.init progs buf pend) sched in
  ConcLin.calm s -> nth_error (Conc.wire s) n = Some (i, h) -> i = (client_pkt_start + N.of_nat n + 1)%N.
Proof. exact ConcLin.packet_order. Qed.
Print Assumptions C05_order.

(* whatever the shaping loop writes for line k is accepted by the reference acceptor for line k *)
Theorem C05_model_accepted : forall raw sc k draws p ws,
  factory_new raw = Some sc -> draws_ok (line_entries sc k) draws ->
  shape_loop (sizes (line_entries sc k) draws) p = Writes ws -> accepts (line_entries sc k) p ws = true.
Proof. intros raw sc k draws p ws _. apply model_accepted, line_entries_wf. Qed.
Print Assumptions C05_model_accepted.

(* the acceptor is sound for C04: accepted writes are the payload followed by padding frames only *)
Theorem C05_accept_sound : forall es p ws,
  accepts es p ws = true ->
  exists ns, concat ws = p ++ concat (map waste ns) /\ Forall (fun n => n <= 65535) ns.
Proof. exact accept_sound. Qed.
Print Assumptions C05_accept_sound.

(* one packet at counter value c (index pkt_index c = c + 1): accepted by its line below stop, plain from stop on *)
Theorem C05_packet : forall raw sc counter draws p ws,
  factory_new raw = Some sc ->
  draws_ok (line_entries sc (pkt_index counter)) draws ->
  fst (write_packet true sc counter draws p) = Writes ws ->
  (pkt_index counter < sc_stop sc -> accepts (line_entries sc (pkt_index counter)) p ws = true) /\
  (sc_stop sc <= pkt_index counter -> ws = wr p).
Proof. intros raw sc counter draws p ws _. apply write_packet_accepted. Qed.
Print Assumptions C05_packet.

(* (b) the k-th packet of a client session, k = i+1 = 1, 2, ..., is shaped by line k (the preamble is packet 0) *)
Theorem C05_index : forall raw sc pkts i d p,
  factory_new raw = Some sc ->
  nth_error pkts i = Some (d, p) -> N.of_nat i + 1 < 4294967296 ->
  draws_ok (line_entries sc (N.of_nat i + 1)) d ->
  exists ws, nth_error (run_packets true sc client_pkt_start pkts) i = Some (Writes ws) /\
    (N.of_nat i + 1 < sc_stop sc -> accepts (line_entries sc (N.of_nat i + 1)) p ws = true) /\
    (sc_stop sc <= N.of_nat i + 1 -> ws = wr p).
Proof. intros raw sc pkts i d p _. apply session_numbering. Qed.
Print Assumptions C05_index.

(* (c) from packet `stop` on: one plain write of the pending bytes, whatever the draws *)
Theorem C05_stop : forall raw sc pkts i d p,
  factory_new raw = Some sc ->
  nth_error pkts i = Some (d, p) -> N.of_nat i + 1 < 4294967296 -> sc_stop sc <= N.of_nat i + 1 ->
  nth_error (run_packets true sc client_pkt_start pkts) i = Some (Writes (wr p)).
Proof. intros raw sc pkts i d p _. apply stop_is_final. Qed.
Print Assumptions C05_stop.

(* (c) the server never pads *)
Theorem C05_server_plain : forall sc pkts c,
  server_send_padding = false /\
  run_packets server_send_padding sc c pkts = map (fun dp => Writes (wr (snd dp))) pkts.
Proof. intros. split; [reflexivity | apply run_packets_server]. Qed.
Print Assumptions C05_server_plain.

(* (a) the authentication preamble is hash ++ be16 L ++ L zero bytes, L inside the first entry of line 0
   (L = 0 when line 0 is missing, empty or starts with a check mark) *)
Theorem C05_preamble : forall raw sc hash draws,
  factory_new raw = Some sc -> draws_ok (line_entries sc 0) draws ->
  exists L, concat (auth_writes hash (sizes (line_entries sc 0) draws)) = hash ++ be16 L ++ zeros L /\
    L <= 65535 /\
    match line_entries sc 0 with
    | ERange lo hi :: _ => (lo <= Z.of_N L <= hi)%Z
    | _ => L = 0
    end.
Proof. exact preamble. Qed.
Print Assumptions C05_preamble.

(* non-vacuity: built-in scheme, first session packet of 20 bytes with draw 150, and the preamble *)
Example C05_nonvacuous :
  factory_new default_scheme = Some builtin_scheme /\
  line_entries builtin_scheme 1 = [ERange 100 400] /\ draws_ok (line_entries builtin_scheme 1) [150%Z] /\
  (exists ws, fst (write_packet true builtin_scheme 0 [150%Z] (zeros 20)) = Writes ws /\
              map (@length N) ws = [150%nat] /\ accepts (line_entries builtin_scheme 1) (zeros 20) ws = true) /\
  accepts (line_entries builtin_scheme 1) (zeros 20) [zeros 20 ++ waste 400] = false /\
  lenN (concat (auth_writes (zeros 32) (sizes (line_entries builtin_scheme 0) []))) = 32 + 2 + 30.
Proof.
  split; [vm_compute; reflexivity|]. split; [vm_compute; reflexivity|].
  split; [vm_compute; intuition discriminate|].
  split; [eexists; split; [vm_compute; reflexivity|]; split; vm_compute; reflexivity|].
  split; vm_compute; reflexivity.
Qed.

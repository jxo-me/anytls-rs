(* C14 -- the liveness monitor closes dead sessions and only dead sessions.
   Model: Model/Heartbeat.v (the heartbeat task of start_client after the repair of D9: a deadline per
   outstanding keep-alive request). T = timeout, I = interval (ms); the command line accepts every pair of
   positive whole seconds (FactsTimed.cli_positive_seconds), the theorems cover every Z. *)
From Coq Require Import List NArith ZArith Bool Lia.
From AnyTLS Require Import Generated Heartbeat HeartbeatProofs TimedLegacy HeartbeatStall.
From AnyTLS Require PoolProofs Conc ConcInv ConcStall.
Import ListNotations.
Open Scope Z_scope.

(* a session whose peer answers every keep-alive request less than T after it was sent (or the observation ends
   before that deadline) is never closed by the monitor -- for every time-ordered trace: any tick instants (every
   interval, timeout < interval and timeout = interval included), any delays below the timeout, any number of
   requests in flight *)
Theorem C14_no_false_close : forall T evs,
  sorted_ev evs -> peer_in_time T evs -> hb_closed (hb_run T hb_init evs) = None.
Proof. intros T evs Hs Hp. apply no_false_close_trace, in_time_of_peer; assumption. Qed.
Print Assumptions C14_no_false_close.

(* the same for the recursive form of the hypothesis (no ordering assumption needed) *)
Theorem C14_no_false_close_trace : forall T evs,
  in_time T evs -> hb_closed (hb_run T hb_init evs) = None.
Proof. exact no_false_close_trace. Qed.
Print Assumptions C14_no_false_close_trace.

(* the form with explicit interval and delays, about the very function the correspondence check executes
   (hb_sim: ticks at 0, I, 2I, ..; the k-th request answered script[k] ms later; observation until H): if every request
   sent within the horizon is answered after a delay in [0, T), the session is never closed -- every I, every T *)
Theorem C14_no_false_close_sim : forall I T H script,
  (forall k, Z.of_nat k * I <= H -> exists d, nth_error script k = Some (Some d) /\ 0 <= d < T) ->
  hb_closed (hb_sim I T H script) = None.
Proof. exact sim_no_false_close. Qed.
Print Assumptions C14_no_false_close_sim.

(* a silent peer: st0 is the monitor right after the peer's last answer at instant a (or at session start, a = 0):
   not closed, nothing outstanding (see C14_after_answer). Afterwards only ticks happen; the interval timer fires
   next at s1 <= a + I (C14_timer_period). Once the clock has reached s1 + T the session is closed; it was closed
   at s1 + T <= a + T + I. Closing is Session::close (C09 covers the release of all waiters). *)
Theorem C14_detects : forall T I st0 a s1 more t,
  hb_closed st0 = None -> hb_out st0 = None ->
  s1 <= a + I -> s1 + T <= t ->
  hb_closed (hb_expire T (hb_run T st0 (map HTick (s1 :: more))) t) = Some (s1 + T) /\
  s1 + T <= a + T + I.
Proof. intros T I st0 a s1 more t Hc Ho Hs Ht. split; [apply detects; assumption | lia]. Qed.
Print Assumptions C14_detects.

Theorem C14_after_answer : forall T st a,
  hb_closed (hb_step T st (HResp a)) = None -> hb_out (hb_step T st (HResp a)) = None.
Proof. exact resp_clears. Qed.
Print Assumptions C14_after_answer.

(* the interval timer of period I > 0 started at 0 fires within I after any instant a *)
Theorem C14_timer_period : forall I a, 0 < I -> exists k, a < k * I <= a + I.
Proof.
  intros I a HI. destruct (PoolProofs.tick_within_interval I (a + 1) HI) as [k Hk]. exists k. lia.
Qed.
Print Assumptions C14_timer_period.

(* only dead sessions: the monitor closes at instant c only if a request sent at c - T was followed by no answer *)
Theorem C14_closes_only_at_deadline : forall T evs c,
  hb_closed (hb_run T hb_init evs) = Some c -> exists s, c = s + T /\ In (HTick s) evs.
Proof.
  intros T evs c H. destruct (close_instant T evs hb_init c eq_refl H) as [s [E [D|D]]]; [discriminate|eauto].
Qed.
Print Assumptions C14_closes_only_at_deadline.

(* the pinned rule (check `now - last answer > T` at the next tick) is refuted on traces that satisfy the hypothesis
   of C14_no_false_close, and the repaired model keeps those sessions open *)
Theorem C14_refuted_pinned_rule :
  (in_time 10000 w_T_lt_I /\ l_closed (lhb_run 10000 lhb_init w_T_lt_I) = Some 30000 /\
   hb_closed (hb_run 10000 hb_init w_T_lt_I) = None) /\
  (in_time 40000 w_T_gt_I /\ l_closed (lhb_run 40000 lhb_init w_T_gt_I) = Some 60000 /\
   hb_closed (hb_run 40000 hb_init w_T_gt_I) = None).
Proof. split; [exact C14_refuted_timeout_below_interval|exact C14_refuted_interval_not_dividing_timeout]. Qed.
Print Assumptions C14_refuted_pinned_rule.

(* the exact class of the pinned rule (D9): with ticks at 0, I, 2I, .. and ties between an answer and a tick resolved
   adversarially, it keeps every session whose peer answers in time open  <->  the interval divides the timeout *)
Theorem C14_pinned_rule_sound_class : forall I T, 0 < I -> 0 < T -> (legacy_sound I T <-> T mod I = 0).
Proof. exact C14_legacy_sound_class. Qed.
Print Assumptions C14_pinned_rule_sound_class.

(* the monitor's own write. All theorems above are about the monitor whose HeartRequest write returns at once. With
   writes that always return, the monitor that may stall (Model/HeartbeatStall.v) is that monitor: *)
Theorem C14_writes_return_refines : forall T evs st,
  w_blocked st = false ->
  hbw_run T st (map (fun e => (e, false)) evs) = {| w_hb := hb_run T (w_hb st) evs; w_blocked := false |}.
Proof. exact hbw_run_never_stalls. Qed.
Print Assumptions C14_writes_return_refines.

(* KNOWN FINDING F4 (known_findings.json: F4-stalled-transport-monitor-never-fires): if the write of one tick never returns
   -- the transport is full and the peer no longer reads, or the writer mutex is held by such a write -- the task stays
   inside that await: right after an answer (open, nothing outstanding), for every later sequence of ticks and every
   horizon t, the session is never closed. "Closed within timeout + interval of the last answer" fails for this class of
   peers; the correspondence check exhibits it on the real code (driver hb, mode z) *)
Theorem C14_known_F4_stalled_write_never_detected : forall T st0 s more t,
  w_blocked st0 = false -> hb_closed (w_hb st0) = None -> hb_out (w_hb st0) = None ->
  hb_closed (w_hb (hbw_expire T (hbw_run T st0 ((HTick s, true) :: more)) t)) = None.
Proof. exact stalled_write_never_detected. Qed.
Print Assumptions C14_known_F4_stalled_write_never_detected.

(* ... and that the monitor's write really can block for ever is a theorem of the interleaving model of the
   session's write path (Model/Conc.v with the stalled transport): the HeartRequest is an ordinary write_frame;
   queued on the writer mutex behind a write that is inside the stalled transport it stays queued under every
   continuation of every schedule (and the close() the monitor would call stays queued just the same) *)
Theorem C14_known_F4_request_queued_forever : forall progs buf pend sched0 h w k f sched,
  let s := Conc.run (Conc.init progs buf pend) sched0 in
  ConcStall.wedged s h -> ConcInv.pcof s w = Conc.PW2wait k f ->
  ConcInv.pcof (Conc.run s sched) w = Conc.PW2wait k f.
Proof.
  intros progs buf pend sched0 h w k f sched s W P.
  apply (ConcStall.wedged_writer_never_returns s h w k f sched); [apply ConcInv.run_inv; apply ConcInv.inv_init | exact W | exact P].
Qed.
Print Assumptions C14_known_F4_request_queued_forever.

(* non-vacuity: I = 30 s, T = 10 s (timeout < interval); the peer answers after 9.999 s each time: the trace is
   time-ordered, satisfies peer_in_time, and stays open; when the peer falls silent after its answer at
   39 999 ms, the session is closed at 70 000 ms = next tick (60 000) + T <= 39 999 + T + I *)
Example C14_nonvacuous :
  let evs := [HTick 0; HResp 9999; HTick 30000; HResp 39999] in
  in_time 10000 evs /\ hb_closed (hb_run 10000 hb_init evs) = None /\
  hb_out (hb_run 10000 hb_init evs) = None /\
  hb_closed (hb_expire 10000 (hb_run 10000 (hb_run 10000 hb_init evs) (map HTick [60000; 90000])) 100000) = Some 70000.
Proof. cbv zeta. split; [cbn; lia|]. vm_compute. repeat split. Qed.

(* C17 -- the HTTP proxy forwards each request to its authority, unchanged in substance.
   Only statements with their short derivations from the lemmas of Proofs/, Print Assumptions and non-vacuity
   examples live here.
   Model: Model/Http.v (src/client/http_proxy.rs translated function by function) over Model/HttpText.v
   (Rust str functions on ASCII byte strings).  `wf_req` is a boolean predicate on the abstract syntax `hreq`:
   ASCII, tokens without white space, host without ':' '/' '?' '[' ']', IPv6 literal in brackets, port digits with
   value <= 65535 (possibly empty), header lines without CR/LF, at most one Host line (any spelling, optional
   white space), method CONNECT (any case) iff authority-form. *)
From Coq Require Import List NArith ZArith Bool String.
From AnyTLS Require Import Bytes Generated HttpText Http HttpReadProofs HttpParseProofs HttpNormProofs.
Import ListNotations.
Open Scope N_scope.

(* the tunnel is opened to the host and port named by the request: CONNECT authority (default 443) |
   absolute URI (default 80 / 443 by scheme) | Host header (default 80); IPv6 literals without their brackets *)
Theorem C17_target : forall r,
  wf_req r = true ->
  exists host port,
    spec_target r = Some (host, port) /\
    parse_http_request (render_head r) (r_body r) = HOk (expected_parse r host port).
Proof. exact parse_render. Qed.
Print Assumptions C17_target.

(* for every other method the origin server receives the same method, the origin-form target, the same version,
   the same header lines in the same order, with only the Host line normalised (in place; appended if absent) *)
Theorem C17_forward : forall r,
  wf_req r = true -> is_connect_req r = false ->
  exists host port,
    spec_target r = Some (host, port) /\
    parse_http_request (render_head r) (r_body r) = HOk (expected_parse r host port) /\
    build_forward_request (expected_parse r host port) = render_head (origin_form r).
Proof. exact forward_render. Qed.
Print Assumptions C17_forward.

(* the two per-function results behind C17_forward / C17_target *)
Theorem C17_split_host_port : forall a default,
  wf_authb a = true -> split_host_port (render_auth a) default = auth_target a default.
Proof. exact shp_auth. Qed.
Print Assumptions C17_split_host_port.

Theorem C17_host_header_value : forall h port,
  wf_hostb h = true -> host_line_out (host_text h) port = render_host_line (norm_host_hdr h port) ++ k_crlf.
Proof. exact host_line_out_render. Qed.
Print Assumptions C17_host_header_value.

(* for EVERY chunking of the client's bytes into non-empty reads: the loop returns Ok iff the header block
   (up to and including the first terminator) is at most 64 KiB; then it returns the split at that terminator,
   and header ++ rest ++ unread chunks is the input (nothing lost, nothing duplicated) *)
Theorem C17_header_read : forall chunks eof,
  Forall (fun c => c <> []) chunks ->
  ((exists h rest rem, read_header [] chunks eof = RhOk h rest rem) <->
   (exists e, find_header_end (concat chunks) = Some e /\ e <= 65536)) /\
  (forall e, find_header_end (concat chunks) = Some e -> e <= 65536 ->
     exists k rest,
       read_header [] chunks eof = RhOk (takeN e (concat chunks)) rest (skipn k chunks) /\
       concat (firstn k chunks) = takeN e (concat chunks) ++ rest /\
       rest ++ concat (skipn k chunks) = dropN e (concat chunks)) /\
  (forall e, find_header_end (concat chunks) = Some e -> 65536 < e -> read_header [] chunks eof = RhTooLarge) /\
  (find_header_end (concat chunks) = None ->
     read_header [] chunks eof =
     if 65536 <? lenN (concat chunks) then RhTooLarge else if eof then RhClosed else RhPending (concat chunks)).
Proof.
  intros chunks eof H. split; [exact (read_header_ok_iff chunks eof H)|]. split; [|split].
  - intros e. exact (read_header_fits chunks eof e H).
  - intros e. exact (read_header_too_large chunks eof e H).
  - exact (read_header_unterminated chunks eof H).
Qed.
Print Assumptions C17_header_read.

(* the split point is the end of the first "\r\n\r\n" *)
Theorem C17_first_terminator : forall s e,
  find_header_end s = Some e ->
  exists pre post, s = pre ++ [13; 10; 13; 10] ++ post /\ e = lenN pre + 4 /\
                   takeN e s = pre ++ [13; 10; 13; 10] /\ dropN e s = post /\
                   forall pre' post', s = pre' ++ [13; 10; 13; 10] ++ post' -> lenN pre <= lenN pre'.
Proof. exact fhe_first. Qed.
Print Assumptions C17_first_terminator.

(* the bytes that follow the header are written to the stream exactly once and in order, after the rewritten
   header (other methods) or alone (CONNECT), whatever the chunking; nothing is written when the open fails *)
Theorem C17_body : forall chunks eof e,
  Forall (fun c => c <> []) chunks -> find_header_end (concat chunks) = Some e -> e <= 65536 ->
  match parse_http_request (takeN e (concat chunks)) [] with
  | HOk r =>
      sent_bytes (handle chunks eof true) =
        (if hp_connect r then [] else build_forward_request r) ++ dropN e (concat chunks) /\
      sent_bytes (handle chunks eof false) = []
  | HErr => forall ok, handle chunks eof ok = []
  end.
Proof. exact handle_body. Qed.
Print Assumptions C17_body.

(* event order of the handler with the outcome of the open as an argument: nothing happens before the open;
   200 is sent only when the open succeeded (and then directly after it), a failed open gives exactly 502,
   there is at most one reply of the proxy's own *)
Theorem C17_connect_reply : forall chunks eof ok,
  handle chunks eof ok = [] \/
  exists h p tl, handle chunks eof ok = EvOpen h p :: tl /\
    ((ok = false /\ tl = [EvReply 502]) \/
     (ok = true /\ exists tl', (tl = EvReply 200 :: tl' \/ exists b, tl = EvSend b :: tl') /\
                               forall c, ~ In (EvReply c) tl')).
Proof. exact handle_shape. Qed.
Print Assumptions C17_connect_reply.

Theorem C17_200_only_after_open : forall chunks eof ok,
  In (EvReply 200) (handle chunks eof ok) -> ok = true.
Proof. exact reply_200_needs_open. Qed.
Print Assumptions C17_200_only_after_open.

(* "only the Host header normalised": the normalised Host line is well-formed and names the same host, and the
   same port -- the decimal printing is exact for every u16 -- except that 443 is omitted like 80, so that a
   request for port 443 is forwarded with a Host line that means port 80 (known finding C17-host-port-elision;
   the tunnel itself goes to the right port by C17_target) *)
Theorem C17_host_normalised : forall r host port,
  wf_req r = true -> is_connect_req r = false -> spec_target r = Some (host, port) ->
  spec_target (origin_form r) = Some (host, if port =? 443 then 80 else port) /\
  is_connect_req (origin_form r) = false /\
  wf_host_hdrb (match r_host (origin_form r) with Some hh => hh | None => norm_host_hdr (HName []) 0 end) = true.
Proof. intros r host port Hwf _. now apply origin_form_names_same_target. Qed.
Print Assumptions C17_host_normalised.

Theorem C17_known_host_port_elision :
  exists r, wf_req r = true /\ is_connect_req r = false /\
            spec_target r = Some ([97], 443) /\ spec_target (origin_form r) = Some ([97], 80).
Proof. exact known_host_port_elision. Qed.
Print Assumptions C17_known_host_port_elision.

(* non-vacuity: a concrete well-formed request (upper-case scheme, bracketed IPv6 with port, query without
   path, HOST: spelling, another header before and after) and what the model computes for it *)
Definition ex_req : hreq :=
  {| r_method := bs "GET";
     r_target := TAbsolute false (bs "HTTP") {| au_host := HV6 (bs "::1"); au_port := Some [8; 0; 8; 0] |} (bs "?q=1");
     r_version := bs "HTTP/1.1";
     r_before := [bs "Accept: */*"];
     r_host := Some {| hh_name := bs "HOST"; hh_pre := bs " "; hh_auth := {| au_host := HName (bs "other"); au_port := None |}; hh_post := [] |};
     r_after := [bs "X-Note: host: x"];
     r_body := bs "BODY" |}.

Example C17_nonvacuous :
  wf_req ex_req = true /\ is_connect_req ex_req = false /\
  spec_target ex_req = Some (bs "::1", 8080) /\
  forward_of ex_req =
    HOk (bs "::1", 8080, false,
         bs "GET /?q=1 HTTP/1.1" ++ [13; 10] ++ bs "Accept: */*" ++ [13; 10] ++ bs "Host: [::1]:8080" ++ [13; 10]
         ++ bs "X-Note: host: x" ++ [13; 10; 13; 10]) /\
  (* the same request cut into three reads, followed by one more read: everything after the header is sent once *)
  let s := render ex_req in
  let chunks := [takeN 10 s; takeN 70 (dropN 10 s); dropN 80 s; bs "MORE"] in
  Forall (fun c => c <> []) chunks /\
  sent_bytes (handle chunks false true) =
    bs "GET /?q=1 HTTP/1.1" ++ [13; 10] ++ bs "Accept: */*" ++ [13; 10] ++ bs "Host: [::1]:8080" ++ [13; 10]
    ++ bs "X-Note: host: x" ++ [13; 10; 13; 10] ++ bs "BODYMORE" /\
  handle chunks false false = [EvOpen (bs "::1") 8080; EvReply 502].
Proof.
  vm_compute. repeat split; try reflexivity. repeat constructor; discriminate.
Qed.

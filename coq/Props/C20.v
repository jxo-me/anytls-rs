(* C20 -- hostile or garbled input cannot crash or wedge the proxy.
   The models have no partial operation left implicit: every Rust operation that can panic on the modelled paths
   (slice indexing, `vec![0; n]` / `with_capacity(n)` with a huge n, `unwrap`, checked arithmetic) is either guarded in
   the model by the same test as in the code or represented by an explicit `Crash` result (Model/Padding.v), and the
   theorems below say that Crash / stuck / spinning is unreachable for EVERY input:
     - the frame decoder is total, consumes >= 7 bytes per frame and is independent of fragmentation;
     - the session dispatch keeps its state well-formed on every frame of every command / id / length / role, only a
       fatal Alert ends the session, and it ends it cleanly; after that the rest of the stream is inert;
     - every padding scheme a peer can push either fails to parse (ignored, C19) or can never make the sender crash;
     - every front-end parser (auth preamble, destination, UDP framing, SOCKS5) is a total function
       NeedMore | Reject | Accept that reads a bounded prefix and is stable under whatever follows; the HTTP header
       read loop is not such a program, and C17_header_read says what it returns for every chunking.
   Isolation ("other sessions and connections are unaffected") is structural in the models (one state per session /
   connection; the only process-wide state is the default padding scheme, C19) and is checked on the implementation by
   the sibling session / sibling connection of every correspondence case. *)
From Coq Require Import List NArith ZArith.
From AnyTLS Require Import Bytes Cmd Generated Frame FrameProofs Reader ReaderProg ReaderProofs.
From AnyTLS Require Import Session SessTable SessHandle SessRecv.
From AnyTLS Require Padding PaddingProofs.
Import ListNotations.

Theorem C20_codec_total : forall b,
  wfb b ->
  exists rs r, decode_all_raw b = (rs, r) /\ decode_all b = (map cook rs, r) /\
    b = concat (map encode_raw rs) ++ r /\ decode1 r = None /\ Forall wf_rframe rs.
Proof. exact decode_total. Qed.
Print Assumptions C20_codec_total.

Theorem C20_codec_progress : forall b : bytes,
  (7 * length (fst (decode_all b)) + length (snd (decode_all b)) <= length b)%nat.
Proof. exact decode_all_progress. Qed.
Print Assumptions C20_codec_progress.

Theorem C20_codec_chunking : forall chunks, feed_all [] chunks = decode_all (concat chunks).
Proof. exact chunking. Qed.
Print Assumptions C20_codec_chunking.

(* the session's reaction to a byte stream depends on the bytes, not on how they were fragmented *)
Theorem C20_session_chunking : forall c chunks st carry,
  cd_inv st -> decode1_raw carry = None ->
  let '(st', carry', o) := Sess.recv_all c st carry chunks in
  (st', o) = Sess.handle_all c st (fst (decode_all (carry ++ concat chunks))) /\
  (Sess.dead st' = false -> carry' = snd (decode_all (carry ++ concat chunks))).
Proof. exact recv_all_spec. Qed.
Print Assumptions C20_session_chunking.

(* any sequence of non-Alert frames (any command byte incl. unknown ones, any stream id, any payload, legal for the
   role or not) leaves the session open, alive and well-formed *)
Theorem C20_session_survives : forall c fs st,
  cfg_ok c -> wf_sess st -> Forall no_alert fs ->
  let st' := fst (Sess.handle_all c st fs) in
  wf_sess st' /\ Sess.s_closed st' = Sess.s_closed st /\ Sess.dead st' = Sess.dead st.
Proof.
  intros c fs st Hc Hw Hn. cbv zeta. split; [apply handle_all_wf, Hw|].
  destruct (Sess.dead st) eqn:Ed; [rewrite SessHandle.handle_all_dead by exact Ed; auto|].
  destruct (handle_all_view c 0%N fs st Hc Hn Ed) as (_ & Hd & Hs & _). auto.
Qed.
Print Assumptions C20_session_survives.

Theorem C20_alert_closes_cleanly : forall c st f,
  fcmd f = Alert -> Sess.s_closed st = false ->
  let '(st', o) := Sess.handle c st f in
  Sess.s_closed st' = true /\ Sess.dead st' = true /\ Sess.tbl st' = [] /\ Sess.sendq st' = [] /\ o = [Sess.Closed].
Proof.
  intros c st f Hf Hc. unfold Sess.handle. rewrite Hf. unfold Sess.close. rewrite Hc. cbn. repeat split; reflexivity.
Qed.
Print Assumptions C20_alert_closes_cleanly.

Theorem C20_dead_is_inert : forall c st carry chunks,
  Sess.dead st = true -> Sess.recv_all c st carry chunks = (st, carry, []).
Proof. intros c st carry chunks. apply recv_all_dead. Qed.
Print Assumptions C20_dead_is_inert.

Theorem C20_scheme_no_crash : forall raw sc pads counter draws buf,
  Padding.factory_new raw = Some sc ->
  Padding.draws_ok (Padding.line_entries sc (Padding.pkt_index counter)) draws ->
  fst (Padding.write_packet pads sc counter draws buf) <> Padding.Crash.
Proof. intros raw sc pads counter draws buf _. apply PaddingProofs.no_crash. Qed.
Print Assumptions C20_scheme_no_crash.

(* front-end parsers: one statement for every reader program (auth preamble, destination header, UDP initial
   request, SOCKS5 greeting and request are instances; see C06/C07/C15/C16) *)
Theorem C20_parsers_prefix_stable : forall (A : Type) (p : prog A) b m,
  run_bytes p b <> NeedMore ->
  run_bytes p (b ++ m) = match run_bytes p b with Accept v r => Accept v (r ++ m) | x => x end.
Proof. intros A p b m. exact (run_bytes_prefix_stable p b m). Qed.
Print Assumptions C20_parsers_prefix_stable.

Theorem C20_parsers_fragmentation : forall (A : Type) (p : prog A) c1 c2 closed,
  concat c1 = concat c2 -> run_chunks p c1 closed = run_chunks p c2 closed.
Proof. intros A p c1 c2 closed. exact (run_chunks_fragmentation p c1 c2 closed). Qed.
Print Assumptions C20_parsers_fragmentation.

(* non-vacuity: a garbage stream with an unknown command, a role-illegal SYNACK, a PSH for an unknown id and a
   truncated tail leaves a server session alive; the same stream followed by an Alert closes it cleanly *)
Example C20_nonvacuous :
  let c := {| Sess.c_role := Sess.Server; Sess.c_md5 := []; Sess.c_scheme := [] |} in
  let garbage := [200; 0; 0; 0; 9; 0; 1; 7] ++ [7; 0; 0; 0; 1; 0; 0] ++ [2; 0; 0; 0; 5; 0; 2; 1; 2] ++ [1; 0; 0]%N in
  let '(st, carry, o) := Sess.recv_all c (Sess.init_sess c) [] [garbage] in
  Sess.dead st = false /\ Sess.s_closed st = false /\ o = [] /\ carry = [1; 0; 0]%N /\
  Sess.dead (fst (fst (Sess.recv_all c (Sess.init_sess c) [] [[5; 0; 0; 0; 0; 0; 0]%N]))) = true.
Proof. vm_compute. repeat split; reflexivity. Qed.

(* C03 -- frame encoding is a faithful, chunking-independent bijection. *)
From Coq Require Import List NArith ZArith Lia.
From AnyTLS Require Import Bytes Cmd Generated Frame BytesFacts FrameProofs.
Import ListNotations.
Open Scope N_scope.

(* encode then decode yields the same command, stream id and payload, and leaves
   whatever follows untouched *)
Theorem C03_roundtrip : forall f rest,
  wf_frame f -> lenN (fdata f) <= 65535 ->
  exists e, encode f = Some e /\ decode1 (e ++ rest) = Some (f, rest).
Proof.
  intros f rest Hw Hl. exists (encode_raw (raw_of f)). split; [apply encode_some, Hl|].
  unfold decode1. rewrite decode1_raw_encode_raw, cook_raw_of by (apply raw_of_wf; assumption). reflexivity.
Qed.
Print Assumptions C03_roundtrip.

(* the encoder never emits a header whose length field differs from the payload *)
Theorem C03_len_field : forall f e,
  encode f = Some e ->
  exists c s3 s2 s1 s0 l1 l0,
    e = c :: s3 :: s2 :: s1 :: s0 :: l1 :: l0 :: fdata f /\
    de16 l1 l0 = lenN (fdata f) /\ lenN e = 7 + lenN (fdata f).
Proof.
  intros f e. rewrite encode_eq. destruct (N.leb_spec (lenN (fdata f)) 65535) as [Hl|]; [|discriminate].
  intros H. injection H as <-. unfold encode_raw, be32, be16. cbn [app raw_of rdata].
  do 7 eexists. split; [reflexivity|]. split; [apply de16_be16; lia | rewrite !lenN_cons; lia].
Qed.
Print Assumptions C03_len_field.

Theorem C03_oversize : forall f, 65535 < lenN (fdata f) -> encode f = None.
Proof. exact oversize. Qed.
Print Assumptions C03_oversize.

(* every byte string decodes without failure into frames + an undecodable rest, consuming
   exactly header+payload per frame and nothing of an incomplete frame *)
Theorem C03_total : forall b,
  wfb b ->
  exists rs r, decode_all_raw b = (rs, r) /\ decode_all b = (map cook rs, r) /\
    b = concat (map encode_raw rs) ++ r /\ decode1 r = None /\ Forall wf_rframe rs.
Proof. exact decode_total. Qed.
Print Assumptions C03_total.

Theorem C03_incomplete_untouched : forall b, decode1 b = None -> decode_all b = ([], b).
Proof. intros b H. apply decode_all_drained, decode1_none, H. Qed.
Print Assumptions C03_incomplete_untouched.

(* any concatenation of encodable frames followed by an incomplete tail decodes to those frames *)
Theorem C03_sequence : forall fs rest,
  Forall wf_frame fs -> Forall (fun f => lenN (fdata f) <= 65535) fs -> decode1 rest = None ->
  decode_all (concat (map encode_raw (map raw_of fs)) ++ rest) = (fs, rest).
Proof.
  intros fs rest Hw Hl Hn. unfold decode_all. rewrite decode_all_raw_concat.
  - rewrite map_map, (map_ext _ _ cook_raw_of), map_id. reflexivity.
  - apply raw_of_wf_all; assumption.
  - apply decode1_none, Hn.
Qed.
Print Assumptions C03_sequence.

(* feeding the decoder any fragmentation yields the same frames and remainder as feeding it whole *)
Theorem C03_chunking : forall chunks, feed_all [] chunks = decode_all (concat chunks).
Proof. exact chunking. Qed.
Print Assumptions C03_chunking.

Theorem C03_unknown_is_waste : forall c, 10 < c -> cmd_of_byte c = Waste.
Proof. exact cmd_of_byte_unknown. Qed.
Print Assumptions C03_unknown_is_waste.

Theorem C03_cmd_byte : forall c, cmd_of_byte (byte_of_cmd c) = c /\ byte_of_cmd c < 256.
Proof. intro c; split; [apply cmd_byte_roundtrip | apply byte_of_cmd_lt]. Qed.
Print Assumptions C03_cmd_byte.

(* non-vacuity: a concrete frame meets the hypotheses and the round trip computes *)
Example C03_nonvacuous :
  let f := {| fcmd := Push; fsid := 4294967295; fdata := [1; 2; 255] |} in
  wf_frame f /\ encode f = Some [2; 255; 255; 255; 255; 0; 3; 1; 2; 255] /\
  decode_all ([2; 255; 255; 255; 255; 0; 3; 1; 2; 255] ++ [200; 0; 0]) = ([f], [200; 0; 0]).
Proof.
  cbv zeta. split; [|split]; [| vm_compute; reflexivity | vm_compute; reflexivity].
  split; [vm_compute; reflexivity|]. repeat constructor.
Qed.

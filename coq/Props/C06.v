(* C06 -- only holders of the password get a session; the declared padding is skipped exactly.
   Only statements with their short derivations from the lemmas of Proofs/, Print Assumptions and non-vacuity
   examples live here.
   H is the expected 32-byte hash (SHA-256 itself is the `sha2` crate: trusted). *)
From Coq Require Import List NArith ZArith.
From AnyTLS Require Import Bytes Reader ReaderProg Generated FactsParsers Auth ReaderProofs AuthProofs.
Import ListNotations.
Open Scope N_scope.

(* premises of the model, re-read from the sources on every run: the hash is 32 bytes, it is compared as a
   whole array with `!=`, and handle_connection propagates authenticate_client's result directly with
   `.await?` before the session is built (no timeout/select wrapper, no branch that goes on without an Ok) *)
Theorem C06_model_premises :
  auth_hash_len = 32 /\ auth_compares_whole_arrays = true /\ auth_result_propagated_directly = true.
Proof. exact (conj auth_hash_len_32 (conj auth_whole_array_comparison auth_gate_direct)). Qed.
Print Assumptions C06_model_premises.

(* accepted iff the first 32 bytes ARE the hash and the declared padding is completely there; what is
   left for frame parsing starts at the first byte after the padding, for every declared length *)
Theorem C06_iff : forall H b r, lenN H = 32 ->
  (auth_parse H b = Accept tt r <->
   takeN 32 b = H /\ 34 + auth_L b <= lenN b /\ r = dropN (34 + auth_L b) b).
Proof. intros H b r Hl. exact (auth_iff H Hl b r). Qed.
Print Assumptions C06_iff.

(* any other 32 bytes, however close, are refused *)
Theorem C06_reject : forall H b, 32 <= lenN b -> takeN 32 b <> H -> auth_parse H b = Reject E_AUTH.
Proof. exact auth_reject. Qed.
Print Assumptions C06_reject.

(* every proper prefix of an accepted preamble is incomplete; if the transport ends there the result
   is an error, not a session *)
Theorem C06_truncated : forall H p s,
  auth_parse H (p ++ s) = Accept tt [] -> s <> [] ->
  auth_parse H p = NeedMore /\ run_eof (auth_prog H) p = FFail E_EOF.
Proof. exact auth_truncated. Qed.
Print Assumptions C06_truncated.

(* the client's own preamble is accepted and consumed exactly for every padding0 length 0..65535 *)
Theorem C06_padding_skipped : forall H n rest, lenN H = 32 -> n < 65536 ->
  auth_parse H (auth_preamble H n ++ rest) = Accept tt rest.
Proof. intros H n rest Hl Hn. exact (auth_preamble_accepted H Hl n rest Hn). Qed.
Print Assumptions C06_padding_skipped.

(* handle_connection, any fragmentation of the transport: session events (frames parsed, streams,
   dials, replies) occur only after an accepted preamble and are exactly those of the session run on
   the bytes after it; a refused or truncated preamble yields no session event at all *)
Theorem C06_no_effects : forall H (ev : Type) (session : bytes -> bool -> list ev) chunks closed,
  (forall e, In (CSession e) (server_conn ev session H chunks closed) ->
     exists r, auth_parse H (concat chunks) = Accept tt r /\ In e (session r closed)) /\
  (In CAuthOk (server_conn ev session H chunks closed) ->
     exists r, auth_parse H (concat chunks) = Accept tt r) /\
  (forall r, auth_parse H (concat chunks) = Accept tt r ->
     server_conn ev session H chunks closed = CAuthOk :: map CSession (session r closed)).
Proof. intros H ev session chunks closed. exact (server_conn_no_effects H ev session chunks closed). Qed.
Print Assumptions C06_no_effects.

Theorem C06_conn_cases : forall H (ev : Type) (session : bytes -> bool -> list ev) chunks closed,
  server_conn ev session H chunks closed =
  match auth_parse H (concat chunks) with
  | Accept _ r => CAuthOk :: map CSession (session r closed)
  | Reject e => [CAuthFail e]
  | NeedMore => if closed then [CAuthFail E_EOF] else []
  end.
Proof. intros H ev session chunks closed. exact (server_conn_eq H ev session chunks closed). Qed.
Print Assumptions C06_conn_cases.

(* fragmentation independence: an answer is final, whatever arrives later *)
Theorem C06_prefix_stable : forall H b m,
  auth_parse H b <> NeedMore ->
  auth_parse H (b ++ m) = match auth_parse H b with Accept v r => Accept v (r ++ m) | x => x end.
Proof. intros H b m. exact (run_bytes_prefix_stable (auth_prog H) b m). Qed.
Print Assumptions C06_prefix_stable.

Theorem C06_fragmentation : forall H c1 c2 closed,
  concat c1 = concat c2 -> run_chunks (auth_prog H) c1 closed = run_chunks (auth_prog H) c2 closed.
Proof. intros H c1 c2 closed. exact (run_chunks_fragmentation (auth_prog H) c1 c2 closed). Qed.
Print Assumptions C06_fragmentation.

(* non-vacuity: a 32-byte hash, padding of 3, two bytes of frame data after it, split in the middle
   of the hash and of the length field *)
Example C06_nonvacuous :
  let H := repeat 7 32 in
  lenN H = 32 /\
  auth_parse H (H ++ [0; 3; 9; 9; 9; 200; 201]) = Accept tt [200; 201] /\
  auth_parse H (repeat 7 31 ++ [8; 0; 0]) = Reject E_AUTH /\
  server_conn N (fun r _ => r) H [repeat 7 10; repeat 7 22 ++ [0]; [3; 9]; [9; 9; 200]; [201]] false
    = [CAuthOk; CSession 200; CSession 201] /\
  server_conn N (fun r _ => r) H [repeat 7 31 ++ [6]; [0; 0; 200]] false = [CAuthFail E_AUTH].
Proof. cbv zeta. repeat split; vm_compute; reflexivity. Qed.

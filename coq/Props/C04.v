(* C04 -- padding is invisible to the payload and keeps the wire well-formed.
   Only statements, their one-line derivations, Print Assumptions and non-vacuity examples live here.
   Model: Model/Padding.v (write_packet = write_with_padding of session.rs; line_entries/sizes =
   generate_record_payload_sizes of factory.rs, one explicit draw per non-degenerate range). *)
From Coq Require Import List NArith ZArith.
From AnyTLS Require Import Bytes Cmd Generated Frame Text Padding PaddingProofs.
Import ListNotations.
Open Scope N_scope.

(* For every scheme the parser accepts, every packet counter value, every list of draws inside the ranges and
   every payload that is a concatenation of encodable frames: the writes of the packet concatenate to the
   payload followed by padding frames; the wire parses into complete frames with nothing left over; the first
   |fs| frames are exactly the submitted ones, in order, and all the others are the inserted padding frames.
   (Payload frames may themselves be Waste frames: padding is identified by position, not by command.) *)
Theorem C04_wellformed : forall raw sc counter draws fs ws,
  factory_new raw = Some sc ->
  Forall wf_frame fs -> Forall (fun f => lenN (fdata f) <= 65535) fs ->
  draws_ok (line_entries sc (pkt_index counter)) draws ->
  fst (write_packet true sc counter draws (payload_of fs)) = Writes ws ->
  exists ns, Forall (fun n => n <= 65535) ns /\
    concat ws = payload_of fs ++ concat (map waste ns) /\
    decode_all (concat ws) = (fs ++ map waste_f ns, []) /\
    firstn (length fs) (fst (decode_all (concat ws))) = fs /\
    skipn (length fs) (fst (decode_all (concat ws))) = map waste_f ns.
Proof. intros raw sc counter draws fs ws _. apply packet_decodes. Qed.
Print Assumptions C04_wellformed.

(* the same for arbitrary pending bytes, client or server: nothing is altered, reordered, dropped or spliced,
   and no transport write is empty *)
Theorem C04_bytes_preserved : forall raw sc pads counter draws buf,
  factory_new raw = Some sc -> draws_ok (line_entries sc (pkt_index counter)) draws ->
  exists ws ns, fst (write_packet pads sc counter draws buf) = Writes ws /\
    concat ws = buf ++ concat (map waste ns) /\ Forall (fun n => n <= 65535) ns /\
    Forall (fun w : bytes => w <> []) ws.
Proof. intros raw sc pads counter draws buf _. apply write_packet_wire. Qed.
Print Assumptions C04_bytes_preserved.

(* no accepted scheme can make the sender crash (capacity overflow, out-of-range slice, add overflow) *)
Theorem C04_no_crash : forall raw sc pads counter draws buf,
  factory_new raw = Some sc -> draws_ok (line_entries sc (pkt_index counter)) draws ->
  fst (write_packet pads sc counter draws buf) <> Crash.
Proof. intros raw sc pads counter draws buf _. apply no_crash. Qed.
Print Assumptions C04_no_crash.

(* every size the generator hands to the loop is the check mark or fits one record *)
Theorem C04_sizes_expressible : forall raw sc k draws,
  factory_new raw = Some sc -> draws_ok (line_entries sc k) draws ->
  Forall (fun s => s = check_mark \/ (1 <= s <= 65535)%Z) (sizes (line_entries sc k) draws).
Proof. intros raw sc k draws _ Hd. apply sizes_ok; [apply line_entries_wf | exact Hd]. Qed.
Print Assumptions C04_sizes_expressible.

(* an inserted frame is cmd 0 (Waste), stream 0, zero-filled, and its length field is the number of zeros *)
Theorem C04_waste_shape : forall n rest,
  n <= 65535 ->
  decode1 (waste n ++ rest) = Some ({| fcmd := Waste; fsid := 0; fdata := zeros n |}, rest) /\
  lenN (waste n) = 7 + n.
Proof. exact waste_decodes. Qed.
Print Assumptions C04_waste_shape.

(* the whole life of a session: any number of packets, each a list of frames; every packet ends on a frame
   boundary and the wire decodes to the submitted frames with padding frames only after each packet's frames *)
Theorem C04_session : forall pads sc (pk : list (list Z * list frame)) c,
  Forall (fun dfs => frames_ok (snd dfs)) pk ->
  pkts_ok pads sc c (to_pkts pk) ->
  exists bursts nss,
    run_packets pads sc c (to_pkts pk) = map Writes bursts /\
    length nss = length pk /\ Forall (Forall (fun n => n <= 65535)) nss /\
    Forall2 (fun b x => concat b = payload_of (snd (fst x)) ++ concat (map waste (snd x))) bursts (combine pk nss) /\
    decode_all (concat (map (@concat N) bursts)) = (expected_frames pk nss, []).
Proof. exact session_wire. Qed.
Print Assumptions C04_session.

(* non-vacuity: the built-in scheme, second session packet (counter value 1 -> line 2 = 400-500,c,500-1000,...),
   draws inside the ranges, a payload of two frames one of which is itself a Waste frame *)
Example C04_nonvacuous :
  let fs := [ {| fcmd := Push; fsid := 1; fdata := [1; 2; 3] |}; {| fcmd := Waste; fsid := 9; fdata := [0; 7] |} ] in
  let draws := [450; 600; 700; 800; 900]%Z in
  factory_new default_scheme = Some builtin_scheme /\
  draws_ok (line_entries builtin_scheme (pkt_index 1)) draws /\
  Forall wf_frame fs /\
  exists ws, fst (write_packet true builtin_scheme 1 draws (payload_of fs)) = Writes ws /\
             map (@length N) ws = [450%nat] /\
             fst (decode_all (concat ws)) = fs ++ [waste_f 424].
Proof.
  cbv zeta. split; [vm_compute; reflexivity|]. split; [vm_compute; intuition discriminate|].
  split; [repeat constructor; vm_compute; reflexivity|].
  eexists. split; [vm_compute; reflexivity|]. split; vm_compute; reflexivity.
Qed.

(* C12 -- the session pool never hands out or destroys the wrong session.
   Model: Model/Pool.v (session_pool.rs + the create_stream / create_new_session glue of client.rs).
   Only statements, their short derivations, Print Assumptions and non-vacuity examples live here.
   Reaper passes: copy 0 = cleanup_expired(), copy 1 = the periodic task (`copy_ok copy`). *)
From Coq Require Import List NArith ZArith Bool.
From AnyTLS Require Import Generated Pool PoolProofs PoolReuseProofs TimedLegacy.
Import ListNotations.
Open Scope Z_scope.

(* whatever the state of the pool (hence: after every history, under every configuration), a session handed
   out by get_idle_session / create_stream / create_new_session is not closed at that step *)
Theorem C12_get_not_closed : forall c now st o st' r sid,
  pool_step c now st o = (st', r) -> handed_out r sid -> p_closed st' sid = false.
Proof. exact step_hands_out_open. Qed.
Print Assumptions C12_get_not_closed.

(* after every reaper pass the number of live idle sessions is at least min(min_idle, live idle sessions before);
   for every history, every timeout and every min_idle including 0 *)
Theorem C12_min_idle : forall copy c now h, copy_ok copy ->
  let st := pool_run c pool_init h in
  let st' := pool_reap_step copy c now st in
  (N.min (c_min c) (N.of_nat (live_cnt (p_closed st) (p_idle st)))
   <= N.of_nat (live_cnt (p_closed st') (p_idle st')))%N.
Proof. intros copy c now h Hc. apply tick_min_idle; [assumption|apply wf_run]. Qed.
Print Assumptions C12_min_idle.

(* surplus, per pass: of the sessions a reaper pass leaves in the map, at most min_idle have been idle for
   the timeout or longer -- every other expired session is closed by that very pass (any state) *)
Theorem C12_surplus_each_pass : forall copy c now st, copy_ok copy ->
  (N.of_nat (expired_cnt (c_timeout c) now (p_idle (pool_reap_step copy c now st))) <= c_min c)%N.
Proof. exact tick_expired_bound. Qed.
Print Assumptions C12_surplus_each_pass.

(* surplus, eventually: if nothing is inserted after instant t, then after a reaper pass at any instant
   >= t + timeout, and from then on, at most min_idle sessions are idle; the periodic reaper (interval I > 0,
   passes at the multiples of I) has such a pass before t + timeout + I *)
Theorem C12_surplus : forall copy c h1 h2 h3 t now, copy_ok copy ->
  Forall (fun x => fst x <= t) h1 ->
  Forall (fun x => ~ inserts (snd x)) h2 -> Forall (fun x => ~ inserts (snd x)) h3 ->
  t + c_timeout c <= now ->
  let st := pool_run c pool_init (h1 ++ h2) in
  (N.of_nat (length (p_idle (pool_run c (pool_reap_step copy c now st) h3))) <= c_min c)%N.
Proof. exact surplus_quiet. Qed.
Print Assumptions C12_surplus.

Theorem C12_reaper_schedule : forall I t, 0 < I -> exists k, t <= k * I < t + I.
Proof. exact tick_within_interval. Qed.
Print Assumptions C12_reaper_schedule.

(* a reaper pass closes nothing but live, expired sessions that sit in the idle map (any state) *)
Theorem C12_reaper_closes_only_idle_expired : forall copy c now st, copy_ok copy -> forall sid,
  p_closed st sid = false -> p_closed (pool_reap_step copy c now st) sid = true ->
  exists e, In e (p_idle st) /\ e_sid e = sid /\ (Z.max 0 (now - e_since e) <? c_timeout c) = false.
Proof. exact tick_closes_only_idle. Qed.
Print Assumptions C12_reaper_closes_only_idle_expired.

(* KNOWN FINDING F2. `reaper closes only sessions without open streams` holds outside the known class
   "the idle map holds a session that carries a stream" ... *)
Theorem C12_reaper_only_unused_outside_known : forall copy c now st, copy_ok copy ->
  (forall e, In e (p_idle st) -> p_busy st (e_sid e) = 0%N) ->
  forall sid, p_closed st sid = false -> p_closed (pool_reap_step copy c now st) sid = true ->
    p_busy st sid = 0%N.
Proof.
  intros copy c now st Hc Hclean sid H0 H1.
  destruct (tick_closes_only_idle copy c now st Hc sid H0 H1) as [e [Hin [<- _]]]. auto.
Qed.
Print Assumptions C12_reaper_only_unused_outside_known.

(* ... and fails inside it: the minimal history (min_idle = 0: one request, stream still open, pass after the
   timeout); a new session is put into the idle map while its first stream is being opened *)
Theorem C12_known_F2_witness :
  let st := pool_run cfg0 pool_init h_F2_min0 in
  Forall (fun x => client_op (snd x)) h_F2_min0 /\
  p_closed st 0%nat = false /\ p_busy st 0%nat = 1%N /\
  (exists e, In e (p_idle st) /\ e_sid e = 0%nat) /\
  p_closed (fst (pool_step cfg0 90000 st PTick)) 0%nat = true.
Proof. exact C12_known_F2_witness_min_idle_0. Qed.
Print Assumptions C12_known_F2_witness.

(* the reach of F2 on client histories: whatever a reaper pass closes carries at most ONE stream -- the first stream
   of a session that was never reused (a reuse takes the session out of the map for good) *)
Theorem C12_known_F2_reach : forall copy c now h, copy_ok copy ->
  Forall (fun x => client_op (snd x)) h ->
  let st := pool_run c pool_init h in
  forall sid, p_closed st sid = false -> p_closed (pool_reap_step copy c now st) sid = true ->
    (p_busy st sid <= 1)%N.
Proof.
  intros copy c now h Hc Hh st sid H0 H1.
  destruct (tick_closes_only_idle copy c now st Hc sid H0 H1) as [e [Hin [<- _]]].
  exact (ki_first _ (client_run c h Hh) e Hin).
Qed.
Print Assumptions C12_known_F2_reach.

(* non-vacuity: three idle sessions, two of them expired, min_idle = 1: the pass keeps the oldest expired one and
   the fresh one, closes the other; counts before/after are 3 and 2 *)
Example C12_nonvacuous :
  let c := {| c_timeout := 60000; c_min := 1%N |} in
  let h := [(0, PNew 5%N); (0, PNew 3%N); (0, PNew 9%N); (1000, PAdd 0%nat); (2000, PAdd 1%nat); (50000, PAdd 2%nat)] in
  let st := pool_run c pool_init h in
  let st' := pool_reap_step 1 c 70000 st in
  live_cnt (p_closed st) (p_idle st) = 3%nat /\ live_cnt (p_closed st') (p_idle st') = 2%nat /\
  map e_sid (p_idle st') = [1%nat; 2%nat] /\ p_closed st' 0%nat = true /\
  snd (pool_step c 70001 st' PGet) = QGot 2%nat.
Proof. vm_compute. repeat split. Qed.

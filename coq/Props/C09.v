(* C09 -- a dying session releases everyone waiting on it, promptly.
   Model: Model/Conc.v. Termination causes: owner close (CClose), peer EOF / read error / fatal Alert
   (CFeed InEof | InErr | InAlert, handled by the receive task), transport write failure (CFail, then any
   write), all at any point of any schedule. Every theorem quantifies over all programs and schedules. *)
From Coq Require Import List NArith Arith.
From AnyTLS Require Import Bytes Cmd Generated Frame Conc ConcInv ConcLin ConcDeath ConcTerm ConcStall ConcFair.
Import ListNotations.

(* 1. nothing can be blocked by the session's own locks: in every reachable state every task is finished,
      waiting for the PEER (data not yet sent / verdict not yet sent: released by 3. below or by the open
      timer CTimeout), the forwarding task waiting for the local APPLICATION's next chunk (parked in recv() of
      the outbound channel; woken by the next send or by close()), able to step, or queued on the writer
      mutex behind a holder that is able to step.
      The model includes the transport that stops accepting bytes (CStall: the peer no longer reads; nothing
      fails). `in_transport s t`: t is inside `writer.write_all(..).await` on such a transport, holding the writer
      mutex -- the one await under a session lock that no timer bounds. The full statement, true of the code as it
      is, therefore has two more alternatives (the last two below); they are the known finding F4, see 1b. *)
Theorem C09_no_deadlock : forall progs buf pend sched t,
  let s := run (init progs buf pend) sched in
  finished s t \/ (awaits_peer s t \/ awaits_app s t) \/ step s t <> None \/
  (waits_pc (pcof s t) = true /\ exists h, wr s = Some h /\ (step s h <> None \/ in_transport s h)) \/
  in_transport s t.
Proof. intros. apply no_deadlock. apply run_inv. apply inv_init. Qed.
Print Assumptions C09_no_deadlock.

(* 1a. as long as the transport has not stalled (every cause of termination the property lists: owner close, peer
       EOF, read error, fatal Alert, write failure), the statement the property asks for *)
Theorem C09_no_deadlock_live : forall progs buf pend sched t,
  let s := run (init progs buf pend) sched in
  stalled s = false ->
  finished s t \/ (awaits_peer s t \/ awaits_app s t) \/ step s t <> None \/
  (waits_pc (pcof s t) = true /\ exists h, wr s = Some h /\ step s h <> None).
Proof. intros progs buf pend sched t s St. apply no_deadlock_live; [apply run_inv; apply inv_init | exact St]. Qed.
Print Assumptions C09_no_deadlock_live.

(* 1b. KNOWN FINDING F4, proved of the model for every program and schedule: once a write is inside the stalled
       transport, it is there for ever, it keeps the writer mutex for ever, the transport is never shut down, and
       everything queued on the mutex stays queued: a close() -- whoever calls it: the owner, the receive task
       after EOF / error / Alert, the liveness monitor -- never returns, a queued writer never gets its error *)
Theorem C09_known_F4_wedged_forever : forall progs buf pend sched0 h sched,
  let s := run (init progs buf pend) sched0 in
  wedged s h ->
  let s' := run s sched in
  wedged s' h /\ forall w, In w (waiters s) -> In w (waiters s') /\ pcof s' w = pcof s w.
Proof. intros progs buf pend sched0 h sched s W. apply wedged_forever; [apply run_inv; apply inv_init | exact W]. Qed.
Print Assumptions C09_known_F4_wedged_forever.

Theorem C09_known_F4_close_never_returns : forall progs buf pend sched0 h w a k sched,
  let s := run (init progs buf pend) sched0 in
  wedged s h -> pcof s w = PC2wait a k ->
  let s' := run s sched in
  pcof s' w = PC2wait a k /\ shut s' = false /\ ~ quiescent_close s' /\ ~ finished s' w.
Proof.
  intros progs buf pend sched0 h w a k sched s W P.
  apply (wedged_close_never_returns s h w a k sched); [apply run_inv; apply inv_init | exact W | exact P].
Qed.
Print Assumptions C09_known_F4_close_never_returns.

(* 1c. ... and what F4 does NOT block: once the drain of close() has run (nobody is between the flag and the drain),
       every entry left in the stream tables is a late entry and every stream handle's inbound queue is closed --
       readers get end-of-stream, pending opens have their verdict (C09_drain_releases) -- whether or not that
       close() is now queued for ever behind the stalled write. No hypothesis about the transport. *)
Theorem C09_released_despite_stall : forall progs buf pend sched,
  let s := run (init progs buf pend) sched in
  closed s = true -> drained s ->
  (forall sid u, In (sid, u) (table s) -> late_entry s sid u) /\
  (forall sid u, In (sid, u) (rtable s) -> late_entry_r s sid u) /\
  (forall u sid, t_sid (tasks s u) = Some sid -> t_rclosed (tasks s u) = true \/ in_window_r (pcof s u) sid).
Proof. exact (fun progs buf pend sched => released_after_drain sched progs buf pend). Qed.
Print Assumptions C09_released_despite_stall.

(* both at once: task 1 is parked in a read; task 2's write is inside the transport when task 3 makes it stall; the
   owner (task 4) closes: its close() is queued behind task 2 for ever (1b) -- and task 1's read has returned
   end-of-stream all the same *)
Example C09_released_despite_stall_nonvacuous :
  let progs := [[]; [COpen; CRead]; [CWrite {| fcmd := Waste; fsid := 0; fdata := [1] |}]; [CStall]; [CClose]] in
  let s := run (init progs false []) [1;1;1;1;1;1;1;1;1; 2;2;2;2; 3; 2; 4;4;4;4; 1;1]%nat in
  wedged s 2%nat /\ closed s = true /\ drained s /\ shut s = false /\ pcof s 4%nat = PC2wait AfterClose WkPlain /\
  t_res (tasks s 1%nat) = [ResOk; ResEof] /\ finished s 1%nat.
Proof.
  vm_compute. repeat split.
  - eauto.
  - intros x. destruct x as [|[|[|[|[|x]]]]]; reflexivity.
Qed.

(* the finding is not vacuous: task 1 writes a frame and is inside the transport when task 2 makes it stall; the
   owner (task 3) calls close(): the session is flagged closed, the tables are drained -- and close() sits in the
   lock queue behind task 1, under every continuation *)
Example C09_known_F4_witness :
  let progs := [[]; [CDisableBuf; CWrite {| fcmd := Waste; fsid := 0; fdata := [1] |}]; [CStall]; [CClose]] in
  let s := run (init progs false []) [1;1;1;1;1;2;1;3;3;3;3]%nat in
  wedged s 1%nat /\ closed s = true /\ shut s = false /\ pcof s 3%nat = PC2wait AfterClose WkPlain /\
  step s 1%nat = None /\ step s 3%nat = None.
Proof. vm_compute. repeat split. eauto. Qed.

(* 2. ... and never for long: under ANY schedule a task takes at most `progw program` steps in total
      (8 per write, 11 per open, 3 per close, 9 per iteration of the forwarding loop, 4 per injected peer event, 1 otherwise), so every granted step is progress towards the end *)
Theorem C09_bounded_steps : forall progs buf pend sched t,
  t <> rtid -> (steps_of t (init progs buf pend) sched <= progw (nth t progs []))%nat.
Proof. intros. apply budget. assumption. Qed.
Print Assumptions C09_bounded_steps.

(* 2a. "promptly", as one statement: from EVERY reachable state, round-robin scheduling of the tasks brings the
       session's machinery to rest within (sum of the programs' budgets + 1) rounds, and at rest every task has
       finished its program, waits for the peer (data / verdict not yet sent), the forwarding task waits for the
       application, or the task is blocked by the stalled transport (F4: inside the write, or queued on the writer
       mutex behind such a write) -- nothing else: no other way of being stuck exists *)
Theorem C09_released_promptly : forall progs buf pend sched0,
  let n := length progs in
  let s0 := run (init progs buf pend) sched0 in
  let N := S (sumf (fun t => progw (nth t progs [])) (seq 0 n)) in
  let s := run s0 (rounds n N) in
  forall t, finished s t \/ awaits_peer s t \/ awaits_app s t \/ transport_blocked s t.
Proof. exact fair_release. Qed.
Print Assumptions C09_released_promptly.

(* 2a'. the same under ANY fair schedule, not only round-robin: a schedule that can be cut into more than
        (sum of budgets) segments each of which grants every task at least once, in any order, with any repetitions *)
Theorem C09_released_promptly_any_fair_schedule : forall progs buf pend sched0 segs,
  let n := length progs in
  let s0 := run (init progs buf pend) sched0 in
  Forall (covering n) segs ->
  (sumf (fun t => progw (nth t progs [])) (seq 0 n) < length segs)%nat ->
  let s := run s0 (concat segs) in
  forall t, finished s t \/ awaits_peer s t \/ awaits_app s t \/ transport_blocked s t.
Proof. exact fair_release_any. Qed.
Print Assumptions C09_released_promptly_any_fair_schedule.

(* 2b. ... and when that session is dead (closed, by whatever cause) and its transport has not stalled, nobody is
       parked in a read and nobody is inside close(): every task has finished, except the forwarding task parked
       in recv() (the missed notification: a leaked task, not a caller) and an open whose stream the peer's FIN
       removed before close() ran (its verdict comes from the open timer, CTimeout) *)
Theorem C09_dead_session_at_rest : forall progs buf pend sched0,
  let n := length progs in
  let s0 := run (init progs buf pend) sched0 in
  let N := S (sumf (fun t => progw (nth t progs [])) (seq 0 n)) in
  let s := run s0 (rounds n N) in
  closed s = true -> stalled s = false ->
  forall t, finished s t \/ awaits_app s t \/ awaits_verdict s t.
Proof. exact dead_at_rest. Qed.
Print Assumptions C09_dead_session_at_rest.

(* non-vacuity: a parked reader, a pending open and a writer whose fifth write hits the failed transport; after
   the 84 round-robin rounds of the bound the session is dead and shut down, the reader has seen end-of-stream,
   the pending open has its error, and all four tasks have finished *)
Example C09_promptly_nonvacuous :
  let w := {| fcmd := Waste; fsid := 0; fdata := [] |} in
  let progs := [[]; [COpen; CDisableBuf; CData [1]; CRead]; [COpen; CData [2]; CAwait];
                [CDisableBuf; CWrite w; CWrite w; CWrite w; CWrite w; CFail; CWrite w]] in
  let n := length progs in
  let N := S (sumf (fun t => progw (nth t progs [])) (seq 0 n)) in
  let s := run (init progs false []) (rounds n N) in
  N = 84%nat /\ closed s = true /\ stalled s = false /\ shut s = true /\
  t_res (tasks s 1%nat) = [ResOk; ResOk; ResOk; ResEof] /\ t_res (tasks s 2%nat) = [ResOk; ResOk; ResClosed] /\
  t_res (tasks s 3%nat) = [ResOk; ResOk; ResOk; ResOk; ResOk; ResOk; ResIo].
Proof. vm_compute. repeat split. Qed.

(* 3. once the session is closed -- by whatever cause -- and nobody is still inside close(), the transport
      is shut down (or has stalled: close() gives its shutdown one second, `shutdown_tr`) and the two stream tables (`streams`, `stream_receive_tx`) hold nothing that any caller can reach:
      open_stream examines the closed flag, allocates the id, inserts the inbound queue into one table and the stream
      into the other -- four separate steps, no lock spans any two. An entry left in a table of a dead session was
      inserted by an open_stream call that had examined the flag BEFORE close() ran and did its insert AFTER the
      drain; that call is still in progress (between its inserts, or with its SYN not yet attempted) or has already
      failed and dropped the handle (`late_entry`, `late_entry_r`) *)
Theorem C09_dead_session : forall progs buf pend sched,
  let s := run (init progs buf pend) sched in
  closed s = true -> quiescent_close s ->
  (shut s = true \/ stalled s = true) /\
  (forall sid u, In (sid, u) (table s) -> late_entry s sid u) /\
  (forall sid u, In (sid, u) (rtable s) -> late_entry_r s sid u).
Proof. exact (fun progs buf pend sched => dead_session_released sched progs buf pend). Qed.
Print Assumptions C09_dead_session.

(* 3a. in EVERY state: an inbound queue without a `streams` entry belongs to an open_stream between its two inserts *)
Theorem C09_tables_consistent : forall progs buf pend sched,
  half_ok (run (init progs buf pend) sched).
Proof. intros. apply run_death_inv. Qed.
Print Assumptions C09_tables_consistent.

(* 3b. ... and every task that holds a stream handle has that stream's inbound queue closed: its reads
       return what was already queued and then end-of-stream; they never park. Exempt: a task whose
       open_stream is still inside the windows above -- it has no handle yet and never gets one (3c) *)
Theorem C09_readers_released : forall progs buf pend sched,
  let s := run (init progs buf pend) sched in
  closed s = true -> quiescent_close s ->
  forall u sid, t_sid (tasks s u) = Some sid -> t_rclosed (tasks s u) = true \/ in_window_r (pcof s u) sid.
Proof. exact (fun progs buf pend sched => dead_session_readers sched progs buf pend). Qed.
Print Assumptions C09_readers_released.

(* 3c. the concurrent open: an open_stream that registered its stream on an already closed session returns
       SessionClosed; nothing is written, the caller holds no handle *)
Theorem C09_concurrent_open_fails : forall s t sid,
  closed s = true -> pcof s t = PO1 sid ->
  exists s1 s2, step s t = Some s1 /\ step s1 t = Some s2 /\
    wire s2 = wire s /\ pending s2 = pending s /\ table s2 = table s /\
    t_sid (tasks s2 t) = None /\ exists pre, t_res (tasks s2 t) = pre ++ [ResClosed].
Proof. exact window_open_fails. Qed.
Print Assumptions C09_concurrent_open_fails.

(* 4. the drain step of close() releases every registered stream: its reader's queue is closed (EOF after the
      data already queued) and its pending open is resolved (with an error if it was still pending) *)
Theorem C09_drain_releases : forall s t a k s',
  pcof s t = PC1 a k -> step s t = Some s' ->
  table s' = [] /\
  forall sid o, In (sid, o) (table s) -> o <> t ->
    t_rclosed (tasks s' o) = true /\ t_verdict (tasks s' o) <> None.
Proof.
  intros s t a k s' Epc H. destruct (close_drain_step s t a k s' Epc H) as [T R].
  split; [exact T | intros sid o Hin _; exact (R sid o Hin)].
Qed.
Print Assumptions C09_drain_releases.

Theorem C09_pending_open_gets_error : forall tb ts sid o,
  In (sid, o) tb -> t_verdict (ts o) = None -> NoDup (map snd tb) ->
  t_verdict (drain tb ts o) = Some ResClosed.
Proof. intros tb ts sid o Hin Hv _. exact (drain_resolves tb ts sid o Hin Hv). Qed.
Print Assumptions C09_pending_open_gets_error.

(* 5. every later attempt fails with an error and leaves the transport untouched *)
Theorem C09_write_after_close_fails : forall s t k f,
  closed s = true -> pcof s t = PW0 k f ->
  exists s', step s t = Some s' /\ wire s' = wire s /\ pending s' = pending s /\
             exists pre, t_res (tasks s' t) = pre ++ [ResClosed].
Proof. exact write_on_closed_fails. Qed.
Print Assumptions C09_write_after_close_fails.

Theorem C09_open_after_close_fails : forall s t rest,
  closed s = true -> pcof s t = PIdle -> t_prog (tasks s t) = COpen :: rest ->
  exists s', step s t = Some s' /\ table s' = table s /\ exists pre, t_res (tasks s' t) = pre ++ [ResClosed].
Proof. exact open_on_closed_fails. Qed.
Print Assumptions C09_open_after_close_fails.

Theorem C09_write_after_shutdown_fails : forall s t k held,
  shut s = true -> pcof s t = PW4 k held ->
  exists s', step s t = Some s' /\ wire s' = wire s /\ pcof s' t = PE0 AfterIoErr k.
Proof. exact write_on_shut_fails. Qed.
Print Assumptions C09_write_after_shutdown_fails.

(* 6. a transport failure closes the session: the failing writer releases the lock first (PE0 is reached
      with the lock free or handed over), so close() can take it -- the lock discipline of C11 holds on
      every path, including the failing ones *)
Theorem C09_lock_discipline : forall progs buf pend sched, Inv (run (init progs buf pend) sched).
Proof. intros. apply run_inv. apply inv_init. Qed.
Print Assumptions C09_lock_discipline.

(* non-vacuity: a writer parked in the lock queue, a parked reader and a pending open while the transport
   fails under the lock holder; after the drain everybody is done, the session is closed, shut and empty *)
Example C09_nonvacuous :
  let progs := [[]; [COpen; CDisableBuf; CData [1]; CRead]; [COpen; CData [2]; CTimeout]; [CFail]] in
  let sched := [1;1;1;1;1;1;1;1;1;1;2;2;2;2;2;2;2;1;1;2;3;1;2;1;2;1;2;1;2;1;2;1;2;1;2;1;2;1;2;1;2;1;2]%nat in
  let s := run (init progs false []) sched in
  closed s = true /\ shut s = true /\ table s = [] /\ quiescent_close s /\
  t_res (tasks s 1%nat) = [ResOk; ResOk; ResIo; ResEof] /\
  t_res (tasks s 2%nat) = [ResOk; ResIo; ResClosed].
Proof.
  cbv zeta. repeat split; try (vm_compute; reflexivity).
  intros x. destruct x as [|[|[|[|x]]]]; vm_compute; reflexivity.
Qed.

(* non-vacuity of the windows: task 1 passes the closed check of open_stream, task 2 closes the session
   completely, then task 1 allocates its id and does its two inserts into the drained tables: the session is dead,
   the entries are there, task 1 is inside the window; two steps later its open has failed and it holds no handle *)
Example C09_window_nonvacuous :
  let progs := [[]; [COpen; CRead]; [CClose]] in
  let s1 := run (init progs false []) [1;2;2;2;1]%nat in
  let s := run s1 [1]%nat in
  closed s1 = true /\ quiescent_close s1 /\ table s1 = [] /\ rtable s1 = [(1%N, 1%nat)] /\ pcof s1 1%nat = PO0b 1 /\
  closed s = true /\ shut s = true /\ quiescent_close s /\ table s = [(1%N, 1%nat)] /\
  pcof s 1%nat = PO1 1 /\ t_sid (tasks s 1%nat) = Some 1%N /\ t_rclosed (tasks s 1%nat) = false /\
  let s2 := run s [1;1;1]%nat in
  t_res (tasks s2 1%nat) = [ResClosed; ResNoStream] /\ t_sid (tasks s2 1%nat) = None /\ wire s2 = [].
Proof. vm_compute. repeat split; intros x; destruct x as [|[|[|x]]]; reflexivity. Qed.

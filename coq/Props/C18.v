(* C18 -- certificate hot-reload is all-or-nothing.
   Only statements with their short derivations from the lemmas of Proofs/, Print Assumptions and the non-vacuity
   example live here.

   Every theorem quantifies over the whole environment: the types of file contents / chains / keys /
   identities, the PEM parsers, the key-match test of rustls, the X.509 analysis, the clocks and the
   `check_expiry` setting are universally quantified arguments -- nothing is assumed about them.
   `reads` is what the file system returned to the reads of ONE (re)load (None = absent/unreadable), so
   "all sequences of on-disk states interleaved with reload requests, and reloads landing at every
   point of a two-file update" is `forall (evs : list (reads * clock))`.

   Scope notes (what is claimed):
   * `check_expiry` is a configuration field of the reloader (default true; the shipped server binary
     sets true -- side lemma cert_check_expiry_on). "An expired certificate fails" is claimed for
     check_expiry = true (C18_expired_fails); with false the certificate is installed by design, and the
     correspondence check confirms exactly that.
   * CertReloader::new only logs an expired initial certificate (side lemma cert_new_accepts_expired);
     the initial pair is validated as a pair but not for expiry. *)
From Coq Require Import List NArith ZArith Bool.
From AnyTLS Require Import Generated FactsCert CertReload CertReloadProofs CertReloadLegacy.
Import ListNotations.
Open Scope Z_scope.

(* a reload that returns an error leaves the acceptor, the reported information, the reload counter
   and the last-reload time exactly as they were (the state IS these four cells) *)
Theorem C18_fail_unchanged :
  forall (blob chain pkey ident : Type) (parse_certs : blob -> option chain)
         (parse_key : blob -> option pkey) (pair_ok : chain -> pkey -> bool)
         (parse_info : blob -> option (ident * Z)) (check_expiry : bool)
         st rd c st' e,
    cr_reload blob chain pkey ident parse_certs parse_key pair_ok parse_info check_expiry st rd c = (st', CrErr e) ->
    st' = st.
Proof. exact fail_unchanged. Qed.
Print Assumptions C18_fail_unchanged.

(* every listed reason makes the reload return an error (and so, by the above, changes nothing):
   a missing file, a file without a complete PEM certificate / private key (truncated, garbage),
   a certificate whose X.509 analysis fails, a key that does not match the certificate *)
Theorem C18_bad_input_fails :
  forall (blob chain pkey ident : Type) (parse_certs : blob -> option chain)
         (parse_key : blob -> option pkey) (pair_ok : chain -> pkey -> bool)
         (parse_info : blob -> option (ident * Z)) (check_expiry : bool)
         st rd c,
    (rd_cert rd = None \/ rd_key rd = None \/
     (exists cb, rd_cert rd = Some cb /\ (parse_certs cb = None \/ parse_info cb = None)) \/
     (exists kb, rd_key rd = Some kb /\ parse_key kb = None) \/
     (exists cb kb ch k, rd_cert rd = Some cb /\ rd_key rd = Some kb /\
        parse_certs cb = Some ch /\ parse_key kb = Some k /\ pair_ok ch k = false)) ->
    exists e, cr_reload blob chain pkey ident parse_certs parse_key pair_ok parse_info check_expiry st rd c
              = (st, CrErr e).
Proof. exact bad_input_fails. Qed.
Print Assumptions C18_bad_input_fails.

(* ... and so does an expired certificate (not_after before the clock reading of the check), also
   one that expired a second ago, whatever else is on disk *)
Theorem C18_expired_fails :
  forall (blob chain pkey ident : Type) (parse_certs : blob -> option chain)
         (parse_key : blob -> option pkey) (pair_ok : chain -> pkey -> bool)
         (parse_info : blob -> option (ident * Z))
         st rd c cb id na r st',
    rd_cert rd = Some cb -> parse_info cb = Some (id, na) -> na < cr_wall_chk c ->
    cr_reload blob chain pkey ident parse_certs parse_key pair_ok parse_info true st rd c = (st', r) ->
    st' = st /\ exists e, r = CrErr e.
Proof. intros; eapply expired_fails; eauto. Qed.
Print Assumptions C18_expired_fails.

(* a successful reload installs exactly the certificate and key bytes returned to the reads of THIS
   reload, which passed PEM parsing and the key-match test as a pair; the reported information is the
   analysis of those same certificate bytes; unexpired at the check; counter + 1; time stamped *)
Theorem C18_success_pair :
  forall (blob chain pkey ident : Type) (parse_certs : blob -> option chain)
         (parse_key : blob -> option pkey) (pair_ok : chain -> pkey -> bool)
         (parse_info : blob -> option (ident * Z)) (check_expiry : bool)
         st rd c st',
    cr_reload blob chain pkey ident parse_certs parse_key pair_ok parse_info check_expiry st rd c = (st', CrOk) ->
    exists i,
      rd_cert rd = Some (l_cert (cr_active st')) /\ rd_key rd = Some (l_key (cr_active st')) /\
      valid_pair blob chain pkey parse_certs parse_key pair_ok (cr_active st') /\
      cr_analyze blob ident parse_info (cr_wall_an c) (l_cert (cr_active st')) = Some i /\ cr_info st' = Some i /\
      (check_expiry = true -> cr_wall_chk c <= ci_not_after i) /\
      cr_count st' = (cr_count st + 1)%N /\ cr_last st' = Some (cr_mono c).
Proof. exact success_pair. Qed.
Print Assumptions C18_success_pair.

(* in EVERY history (initial load followed by any sequence of reload requests against any disk
   contents) the served pair and the reported information were produced by ONE load event (rd, c) of
   that history: certificate and key bytes are those returned to the reads of that event, they passed
   validation together, the information is the analysis of exactly those certificate bytes, and --
   unless it is still the initial pair -- it was unexpired at that reload (check on).
   "Loaded together" = same event; the second-read field of `reads` plays no role
   (C18_second_read_irrelevant), which is what the pinned code got wrong (C18_refuted_* in Legacy). *)
Theorem C18_invariant :
  forall (blob chain pkey ident : Type) (parse_certs : blob -> option chain)
         (parse_key : blob -> option pkey) (pair_ok : chain -> pkey -> bool)
         (parse_info : blob -> option (ident * Z)) (check_expiry : bool)
         rd0 c0 st0 evs,
    cr_new blob chain pkey ident parse_certs parse_key pair_ok parse_info rd0 c0 = inl st0 ->
    exists rd c,
      installed_by blob chain pkey ident parse_certs parse_key pair_ok parse_info check_expiry
        st0 (cr_run_state blob chain pkey ident parse_certs parse_key pair_ok parse_info check_expiry st0 evs)
        rd0 c0 evs rd c.
Proof. exact invariant. Qed.
Print Assumptions C18_invariant.

Theorem C18_second_read_irrelevant :
  forall (blob chain pkey ident : Type) (parse_certs : blob -> option chain)
         (parse_key : blob -> option pkey) (pair_ok : chain -> pkey -> bool)
         (parse_info : blob -> option (ident * Z)) c k c2 c2' w,
    cr_load blob chain pkey ident parse_certs parse_key pair_ok parse_info (Build_cr_reads c k c2) w
    = cr_load blob chain pkey ident parse_certs parse_key pair_ok parse_info (Build_cr_reads c k c2') w.
Proof. exact load_ignores_second_read. Qed.
Print Assumptions C18_second_read_irrelevant.

(* a successful reload stays in force: any number of later failing reloads leave the state as it is *)
Theorem C18_success_persists :
  forall (blob chain pkey ident : Type) (parse_certs : blob -> option chain)
         (parse_key : blob -> option pkey) (pair_ok : chain -> pkey -> bool)
         (parse_info : blob -> option (ident * Z)) (check_expiry : bool)
         evs st,
    Forall (fun r => exists e, r = CrErr e)
           (cr_outcomes blob chain pkey ident parse_certs parse_key pair_ok parse_info check_expiry st evs) ->
    cr_run_state blob chain pkey ident parse_certs parse_key pair_ok parse_info check_expiry st evs = st.
Proof. exact failures_keep_state. Qed.
Print Assumptions C18_success_persists.

(* a connection accepted after the operations `before` is served with the pair active at that
   moment, whatever reloads / accepts follow before its handshake 
   Premise tied to the code: the model operation CrAccept takes the snapshot at the moment the
   connection is accepted. In server.rs `listen` this is `self.tls_config.read().unwrap().clone()`
   placed AFTER `listener.accept().await` inside the loop -- stated by the side lemma
   FactsCert.listen_snapshot_after_accept_true (regenerated from the source on every run) and
   exercised on a real loopback listener by the `certlisten` correspondence scenario. *)
Theorem C18_snapshot :
  forall (blob chain pkey ident : Type) (parse_certs : blob -> option chain)
         (parse_key : blob -> option pkey) (pair_ok : chain -> pkey -> bool)
         (parse_info : blob -> option (ident * Z)) (check_expiry : bool)
         s before after,
    nth_error (cr_conns (cr_run blob chain pkey ident parse_certs parse_key pair_ok parse_info check_expiry s
                          (before ++ CrAccept :: after)))
              (length (cr_conns (cr_run blob chain pkey ident parse_certs parse_key pair_ok parse_info check_expiry s before)))
    = Some (cr_active (cr_rl (cr_run blob chain pkey ident parse_certs parse_key pair_ok parse_info check_expiry s before))).
Proof. exact snapshot_conn. Qed.
Print Assumptions C18_snapshot.

(* sessions established before a reload (and connections accepted before it) are never touched *)
Theorem C18_sessions_undisturbed :
  forall (blob chain pkey ident : Type) (parse_certs : blob -> option chain)
         (parse_key : blob -> option pkey) (pair_ok : chain -> pkey -> bool)
         (parse_info : blob -> option (ident * Z)) (check_expiry : bool)
         s ops j a,
    (nth_error (cr_conns s) j = Some a ->
     nth_error (cr_conns (cr_run blob chain pkey ident parse_certs parse_key pair_ok parse_info check_expiry s ops)) j = Some a) /\
    (nth_error (cr_sess s) j = Some a ->
     nth_error (cr_sess (cr_run blob chain pkey ident parse_certs parse_key pair_ok parse_info check_expiry s ops)) j = Some a).
Proof. exact undisturbed. Qed.
Print Assumptions C18_sessions_undisturbed.

(* the four writes cannot be interrupted: the only partial operation after the first write is the
   checked `reload_count += 1`, unreachable while cr_count st plus the number of requests is at most
   u64::MAX *)
Theorem C18_commit_cannot_panic :
  forall (blob chain pkey ident : Type) (parse_certs : blob -> option chain)
         (parse_key : blob -> option pkey) (pair_ok : chain -> pkey -> bool)
         (parse_info : blob -> option (ident * Z)) (check_expiry : bool)
         evs st,
    (cr_count st + N.of_nat (length evs) <= cr_u64_max)%N ->
    ~ In CrPanic (cr_outcomes blob chain pkey ident parse_certs parse_key pair_ok parse_info check_expiry st evs).
Proof. exact no_panic. Qed.
Print Assumptions C18_commit_cannot_panic.

(* non-vacuity, in the concrete world of Legacy/CertReloadLegacy.v (certificate files 1, 2 valid,
   3 expired two days ago, 4 expired one hour ago; 1, 3, 4 belong to key 10, 2 to key 20):
   the two-read and the recently-expired witnesses that the pinned code accepted are now handled;
   a valid replacement is installed; a half-done two-file update (new certificate, old key) fails. *)
Example C18_nonvacuous :
  let new := cr_new N N N N w_parse_certs w_parse_key w_pair_ok w_parse_info in
  let rel := cr_reload N N N N w_parse_certs w_parse_key w_pair_ok w_parse_info true in
  exists st0 st1,
    new (stable 1 10) w_clock = inl st0 /\
    (* certificate replaced between the two reads the pinned code made: first read wins, consistently *)
    rel st0 (Build_cr_reads (Some 1%N) (Some 10%N) (Some 2%N)) w_clock = (st1, CrOk) /\
    l_cert (cr_active st1) = 1%N /\ option_map ci_ident (cr_info st1) = Some 101%N /\ cr_count st1 = 1%N /\
    (* expired first read, fresh second read: refused *)
    rel st1 (Build_cr_reads (Some 3%N) (Some 10%N) (Some 1%N)) w_clock = (st1, CrErr CrTls) /\
    (* expired one hour ago: refused *)
    rel st1 (stable 4 10) w_clock = (st1, CrErr CrTls) /\
    (* half-done update: new certificate 2 with old key 10 *)
    rel st1 (stable 2 10) w_clock = (st1, CrErr CrTls) /\
    (* update complete *)
    snd (rel st1 (stable 2 20) w_clock) = CrOk /\
    l_cert (cr_active (fst (rel st1 (stable 2 20) w_clock))) = 2%N /\
    cr_count (fst (rel st1 (stable 2 20) w_clock)) = 2%N.
Proof.
  cbv zeta. eexists. eexists.
  split; [vm_compute; reflexivity|].
  split; [vm_compute; reflexivity|].
  vm_compute. repeat split.
Qed.

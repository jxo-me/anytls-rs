(* C02 -- streams sharing a session never see each other's bytes.
   `view b st` = everything the session and the application hold for stream id b: the live table entry
   (inbound queue + reader state, pending-open slot, closed flag) and the detached objects of earlier
   incarnations of b.  The statements are about handle_frame applied to ANY frame sequence (every arrival
   order of open / data / close frames of any ids, ids reused after close, ids never opened); `no_alert`
   excludes only the Alert frame, which ends the whole session (C09).  `cfg_ok` = the session's padding scheme
   text fits into a frame (otherwise the Settings reply cannot be encoded and the receive loop stops).
   A duplicate SYN for an id that is open replaces that stream's OWN queue (vstep, Syn arm: the old object is
   detached with its queue closed); it touches no other id.  Recorded here, not a violation. *)
From Coq Require Import List NArith ZArith.
From AnyTLS Require Import Bytes Cmd Generated Frame Reader Session FrameProofs
  SessTable SessHandle SessRecv SessPipe SessOpen.
From AnyTLS Require Conc ConcInv ConcIds.
Import ListNotations.
Import Sess.
Open Scope N_scope.

(* frames of stream a are invisible to stream b *)
Theorem C02_noninterference : forall c st fs a b,
  cfg_ok c -> a <> b -> Forall no_alert fs -> dead st = false ->
  view b (fst (handle_all c st fs)) =
  view b (fst (handle_all c st (filter (fun f => negb (fsid f =? a)) fs))).
Proof.
  intros c st fs a b Hok Hab Hall Hd.
  destruct (handle_all_view c b fs st Hok Hall Hd) as [H1 _].
  destruct (handle_all_view c b _ st Hok (incl_Forall (incl_filter (fun f => negb (fsid f =? a)) fs) Hall) Hd) as [H2 _].
  rewrite H1, H2, vrun_filter by exact Hab. reflexivity.
Qed.
Print Assumptions C02_noninterference.

(* one frame changes the view of its own id only, and by a function of that view alone *)
Theorem C02_locality : forall c st f b,
  no_alert f ->
  view b (fst (handle c st f)) = if fsid f =? b then vstep c f (view b st) else view b st.
Proof. exact handle_view. Qed.
Print Assumptions C02_locality.

(* the queue of b holds exactly the payloads of the PSH frames with id b that arrive while b is registered *)
Theorem C02_content : forall c st b s fs,
  cfg_ok c -> dead st = false -> lookup b (tbl st) = Some s ->
  Forall no_alert fs -> Forall (fun f => ends c b f = false) fs ->
  exists s', lookup b (tbl (fst (handle_all c st fs))) = Some s' /\
    rd s' = rd_pushes (rd s) (pushes b fs) /\ sclosed s' = sclosed s /\
    only b (gone (fst (handle_all c st fs))) = only b (gone st).
Proof. exact content. Qed.
Print Assumptions C02_content.

(* PSH / FIN / SYNACK for an id that is not registered (never opened, not yet opened, already finished)
   change nothing and produce nothing *)
Theorem C02_unknown_dropped : forall c st f,
  lookup (fsid f) (tbl st) = None ->
  fcmd f = Push \/ fcmd f = Fin \/ fcmd f = SynAck ->
  handle c st f = (st, []).
Proof.
  intros c st f Hl Hc. unfold handle. destruct Hc as [Hc|[Hc|Hc]]; rewrite Hc.
  - rewrite Hl. reflexivity.
  - unfold detach. rewrite Hl. destruct st; reflexivity.
  - rewrite Hl. destruct (is_client c); reflexivity.
Qed.
Print Assumptions C02_unknown_dropped.

(* every data frame carries the id it was submitted under; ids handed out by open_stream are pairwise
   distinct while fewer than 2^32 streams were opened *)
Theorem C02_stamp : forall sid d n st,
  Forall (fun f => fcmd f = Push /\ fsid f = sid /\ lenN (fdata f) <= max_payload) (data_frames sid d) /\
  (s_closed st = false -> next_id st < 4294967296 -> N.of_nat n <= 4294967296 ->
   NoDup (snd (open_many n st))).
Proof. intros sid d n st. split; [apply data_frames_ok | apply open_ids_distinct]. Qed.
Print Assumptions C02_stamp.

(* a received FIN takes exactly the entry of its own id out of the tables *)
Theorem C02_fin_own_id_only : forall c st sid d,
  wf_sess st ->
  let st' := fst (handle c st (mk Fin sid d)) in
  lookup sid (tbl st') = None /\
  (forall b, b <> sid -> lookup b (tbl st') = lookup b (tbl st) /\ only b (gone st') = only b (gone st)).
Proof.
  intros c st sid d _. cbv zeta. pose proof (fin_view c st sid d) as Hv. split.
  - specialize (Hv sid). rewrite N.eqb_refl in Hv. injection Hv as Hl _. exact Hl.
  - intros b Hb. specialize (Hv b). rewrite (proj2 (N.eqb_neq sid b)) in Hv by congruence.
    injection Hv as Hl Hg. auto.
Qed.
Print Assumptions C02_fin_own_id_only.

(* non-vacuity: a server session with streams 1 and 2 open; an interleaving with data for both, a stale
   id (3 after its FIN), a never-opened id (9) and a duplicate SYN for 1 *)
Example C02_nonvacuous :
  let c := {| c_role := Server; c_md5 := []; c_scheme := [] |} in
  let fs := [mk Syn 1 []; mk Syn 2 []; mk Syn 3 []; mk Push 1 [1; 1]; mk Fin 3 []; mk Push 3 [3];
             mk Push 2 [2]; mk Push 9 [9]; mk Syn 1 []; mk Push 1 [1]; mk Fin 9 []; mk Push 2 [2; 2]] in
  cfg_ok c /\ Forall no_alert fs /\ dead (init_sess c) = false /\
  view 2 (fst (handle_all c (init_sess c) fs)) =
    view 2 (fst (handle_all c (init_sess c) (filter (fun f => negb (fsid f =? 1)) fs))) /\
  (match fst (view 2 (fst (handle_all c (init_sess c) fs))) with Some s => rq (rd s) | None => [] end) = [[2]; [2; 2]] /\
  map (fun s => rq (rd s)) (snd (view 1 (fst (handle_all c (init_sess c) fs)))) = [[[1; 1]]] /\
  keys (tbl (fst (handle_all c (init_sess c) fs))) = [2; 1].
Proof.
  vm_compute. split; [discriminate|]. split; [repeat constructor; discriminate|]. repeat split.
Qed.

(* streams opened CONCURRENTLY: on the interleaving model of the open / write / close paths (Model/Conc.v: open_stream
   examines the flag, allocates the id, inserts into the two tables and submits the SYN in separate steps, any number
   of tasks, any schedule, faults and closes included) every id a task holds was handed out by the counter, and no
   two tasks ever hold the same id -- two streams with one id would share an inbound queue *)
Theorem C02_concurrent_opens_distinct_ids : forall progs buf pend sched,
  let s := Conc.run (Conc.init progs buf pend) sched in
  (forall t sid, Conc.t_sid (Conc.tasks s t) = Some sid -> sid < Conc.next_sid s) /\
  (forall t1 t2 sid, Conc.t_sid (Conc.tasks s t1) = Some sid -> Conc.t_sid (Conc.tasks s t2) = Some sid -> t1 = t2).
Proof. exact ConcIds.run_ids_ok. Qed.
Print Assumptions C02_concurrent_opens_distinct_ids.

(* ... and neither stream table (`streams`, `stream_receive_tx`) ever holds an id twice, although the id is allocated and
   the two inserts are made in three separate steps that any other task's open, any FIN and any close() may interleave with *)
Theorem C02_one_stream_per_id : forall progs buf pend sched,
  let s := Conc.run (Conc.init progs buf pend) sched in
  NoDup (map fst (Conc.table s)) /\ NoDup (map fst (Conc.rtable s)) /\
  (forall sid u, In (sid, u) (Conc.table s) -> sid < Conc.next_sid s) /\
  (forall sid u, In (sid, u) (Conc.rtable s) -> sid < Conc.next_sid s).
Proof.
  intros progs buf pend sched s. destruct (ConcIds.run_tab_ok progs buf pend sched) as ((R1 & R2) & (T1 & T2) & _).
  repeat split; assumption.
Qed.
Print Assumptions C02_one_stream_per_id.

(* non-vacuity: two tasks whose opens are interleaved step by step hold the ids 1 and 2 *)
Example C02_concurrent_opens_nonvacuous :
  let s := Conc.run (Conc.init [[]; [Conc.COpen]; [Conc.COpen]] false []) [1;2;1;2;1;2;1;2;1;2;1;2;1;2;1;2;1;2]%nat in
  Conc.t_sid (Conc.tasks s 1%nat) = Some 1 /\ Conc.t_sid (Conc.tasks s 2%nat) = Some 2 /\ Conc.next_sid s = 3.
Proof. vm_compute. repeat split. Qed.

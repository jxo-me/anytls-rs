(* C08 -- end of stream reaches the other side, after all the data.
   What holds (receive side, ordering, other direction, nothing retained) is proved below.
   What does NOT hold: C08_propagates ("when endpoint A's sender finishes, endpoint B's reader eventually
   returns Eof").  The faithful model of the four places where a local end of input is noticed
   (`site`: SOCKS5 client->proxy EOF, HTTP client->proxy EOF, server handler target->client EOF,
   Stream::poll_shutdown) writes nothing at all, and no local operation of a session ever produces a FIN
   frame, so B's reader stays Pending as long as the session lives: C08_propagates_refuted.
   This is KNOWN FINDING F1 (known_findings.json); the real-time driver `lo` confirms the four sites on
   every run.  "No task is retained" is observed by the driver, not proved. *)
From Coq Require Import List NArith ZArith Lia.
From AnyTLS Require Import Bytes Cmd Generated Frame Reader Session FrameProofs ReaderProofs
  SessTable SessHandle SessRecv SessPipe SessFin.
Import ListNotations.
Import Sess.
Open Scope N_scope.

(* a FIN cannot overtake data: everything dispatched for b before the FIN is queued before the queue is
   closed, and the reader obtains all of it before it is told Eof *)
Theorem C08_fin_after_data : forall c st b s gs1 d,
  cfg_ok c -> wf_sess st -> dead st = false ->
  lookup b (tbl st) = Some s -> rd_open (rd s) -> quiet_for c b gs1 ->
  let st' := fst (handle_all c st (gs1 ++ [mk Fin b d])) in
  lookup b (tbl st') = None /\
  exists sf, only b (gone st') = only b (gone st) ++ [sf] /\
    rclosed (rd sf) = true /\ rd_wf (rd sf) /\ sclosed sf = sclosed s /\
    rd_pending_bytes (rd sf) = rd_pending_bytes (rd s) ++ concat (pushes b gs1) /\
    forall caps, Forall (fun cap => 0 < cap) caps ->
      let '(_, got, e) := rd_read_script (rd sf) caps in
      (exists rest, got ++ rest = rd_pending_bytes (rd s) ++ concat (pushes b gs1)) /\
      (e = true -> got = rd_pending_bytes (rd s) ++ concat (pushes b gs1)).
Proof. intros c st b s gs1 d Hok _. apply fin_after_data, Hok. Qed.
Print Assumptions C08_fin_after_data.

(* a received FIN removes exactly the entries of its own id, touches nothing else, writes nothing *)
Theorem C08_fin_exact : forall c st sid d,
  wf_sess st ->
  let st' := fst (handle c st (mk Fin sid d)) in
  snd (handle c st (mk Fin sid d)) = [] /\
  lookup sid (tbl st') = None /\
  (forall b, b <> sid -> lookup b (tbl st') = lookup b (tbl st)) /\
  only sid (gone st') = detached (lookup sid (tbl st)) (only sid (gone st)) /\
  (forall b, b <> sid -> only b (gone st') = only b (gone st)) /\
  length (tbl st') = match lookup sid (tbl st) with Some _ => pred (length (tbl st)) | None => length (tbl st) end /\
  s_closed st' = s_closed st /\ dead st' = dead st /\ sendq st' = sendq st /\
  peer_version st' = peer_version st /\ next_id st' = next_id st.
Proof.
  intros c st sid d Hwf. cbv zeta. unfold handle. cbn [mk fcmd fsid].
  pose proof (fun b => detach_view sid b (tbl st) (gone st)) as Hv.
  pose proof (detach_length sid (tbl st) (gone st) Hwf) as Hlen.
  destruct (detach sid (tbl st) (gone st)) as [t g]. cbn [fst snd with_tbl tbl gone] in *.
  pose proof (Hv sid) as Hs. rewrite N.eqb_refl in Hs. injection Hs as Hl Hg.
  assert (Hb : forall b, b <> sid -> lookup b t = lookup b (tbl st) /\ only b g = only b (gone st)).
  { intros b Hb. specialize (Hv b). rewrite (proj2 (N.eqb_neq sid b)) in Hv by congruence. injection Hv; auto. }
  repeat split; auto; intros b Hne; apply (Hb b Hne).
Qed.
Print Assumptions C08_fin_exact.

(* after a FIN in one direction the other direction keeps working: at the endpoint that received it the
   session still frames data for that id and the stream object still accepts send_data; at the endpoint
   that sent it nothing changed, so data for that id is still queued *)
Theorem C08_other_direction : forall c st sid s d chunk gs,
  cfg_ok c -> wf_sess st -> s_closed st = false -> dead st = false ->
  lookup sid (tbl st) = Some s -> sclosed s = false -> quiet_for c sid gs ->
  let st' := fst (handle c st (mk Fin sid d)) in
  write_data st' sid chunk = (map Send (data_frames sid chunk), WOk) /\
  stream_send st' sid (length (only sid (gone st))) chunk = (with_sendq st' (sendq st' ++ [(sid, chunk)]), WOk) /\
  fst (write_ctrl st (mk Fin sid [])) = [Send (mk Fin sid [])] /\
  exists s', lookup sid (tbl (fst (handle_all c st gs))) = Some s' /\ rd s' = rd_pushes (rd s) (pushes sid gs).
Proof.
  intros c st sid s d chunk gs Hok Hwf Hc Hd Hl Hs Hq. cbv zeta.
  destruct (handle_flags c st (mk Fin sid d) ltac:(discriminate)) as (Hc' & _).
  destruct (fin_own c st sid d) as [_ Hg]. rewrite Hl in Hg.
  destruct (handle_all_content c st sid s gs Hok Hd Hl Hq) as (s' & H1 & _ & H3 & _).
  split; [unfold write_data; rewrite Hc', Hc; reflexivity|]. split; [|split; [|eauto]].
  - unfold stream_send, obj. rewrite Hg. cbn [detached].
    rewrite nth_error_app2, Nat.sub_diag by lia. cbn [nth_error drop_tx sclosed]. rewrite Hs, Hc', Hc. reflexivity.
  - rewrite write_ctrl_ok by (exact Hc || apply N.le_0_l). reflexivity.
Qed.
Print Assumptions C08_other_direction.

(* receive-side cleanup: after the FIN no table contains the id; when the session ends no table contains
   anything *)
Theorem C08_cleanup : forall c st sid d,
  wf_sess st ->
  lookup sid (tbl (fst (handle c st (mk Fin sid d)))) = None /\
  (s_closed st = false -> tbl (fst (close st)) = []).
Proof. exact cleanup. Qed.
Print Assumptions C08_cleanup.

(* KNOWN FINDING F1: at none of the four sites is anything written when the local input ends, and no
   local operation (open, write_data_frame, the forwarding task, the dispatch of any received frame) ever
   produces a FIN frame.  Together with C01_prefix (a reader of an open stream is never told Eof unless a
   FIN / SYN for its id or the end of the session is dispatched) this refutes C08_propagates at all sites. *)
Theorem C08_propagates_refuted : forall site st sid k,
  snd (local_eof site st sid k) = [] /\
  (forall st2 sid2 chunk, no_fin (fst (write_data st2 sid2 chunk))) /\
  (forall st2, no_fin (snd (fst (open st2)))) /\
  (forall st2, no_fin (snd (pump st2))) /\
  (forall c st2 f, no_fin (snd (handle c st2 f))).
Proof.
  intros site st sid k. split; [apply local_eof_silent|].
  split; [intros; apply write_data_no_fin|]. split; [intros; apply open_no_fin|].
  split; [intros; apply pump_no_fin | intros; apply handle_no_fin].
Qed.
Print Assumptions C08_propagates_refuted.

(* the concrete run behind the finding, for each site: A opens stream 1, writes data, its input ends;
   everything A ever wrote is delivered to B; B's reader of stream 1 then gets the data and Pending, not Eof *)
Example C08_refuted_witness : forall site,
  let cA := {| c_role := Client; c_md5 := []; c_scheme := [] |} in
  let cB := {| c_role := Server; c_md5 := []; c_scheme := [] |} in
  let '(stA1, o1, _) := open (init_sess cA) in
  let o2 := fst (write_data stA1 1 [7; 7]) in
  let '(stA2, o3) := local_eof site stA1 1 0 in
  let stB := fst (handle_all cB (init_sess cB) (sent_frames (o1 ++ o2 ++ o3))) in
  match lookup 1 (tbl stB) with
  | Some s => let '(_, got, e) := rd_read_script (rd s) [10; 10; 10] in (got, e) = ([7; 7], false)
  | None => False
  end.
Proof. intros site. destruct site; vm_compute; reflexivity. Qed.

(* non-vacuity of the positive statements: 5 bytes queued, 3 more dispatched, then the FIN *)
Example C08_nonvacuous :
  let c := {| c_role := Server; c_md5 := []; c_scheme := [] |} in
  let st := fst (handle_all c (init_sess c) [mk Syn 4 []; mk Syn 6 []; mk Push 4 [1; 2; 3; 4; 5]]) in
  let gs1 := [mk Push 6 [9]; mk Push 4 [6; 7; 8]] in
  let st' := fst (handle_all c st (gs1 ++ [mk Fin 4 []])) in
  cfg_ok c /\ wf_sess st /\ dead st = false /\ quiet_for c 4 gs1 /\
  (exists s, lookup 4 (tbl st) = Some s /\ rd_open (rd s)) /\
  keys (tbl st') = [6] /\
  (match only 4 (gone st') with
   | [sf] => let '(_, got, e) := rd_read_script (rd sf) [3; 3; 3; 3] in (got, e)
   | _ => ([], false)
   end) = ([1; 2; 3; 4; 5; 6; 7; 8], true).
Proof.
  vm_compute. split; [discriminate|]. split; [repeat (constructor; [cbn; intuition discriminate|]); constructor|]. split; [reflexivity|].
  split; [repeat constructor; discriminate|]. split; [eexists; repeat split|]. split; reflexivity.
Qed.

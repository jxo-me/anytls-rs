(* C13 -- sessions are reused instead of re-dialled.
   Model: Model/Pool.v, client histories (create_stream = PAcq [+ PCreate], stream completions, deaths, reaper).
   KNOWN FINDING F3: a reused session is taken out of the idle map and never put back. The theorems state what
   holds outside that class (no reuse has happened yet), what holds in general (the exact leak), and the witnesses. *)
From Coq Require Import List NArith ZArith Bool.
From AnyTLS Require Import Generated Pool PoolProofs PoolReuseProofs TimedLegacy.
Import ListNotations.
Open Scope Z_scope.

(* a request dials only when the idle map holds no live session (any state) *)
Theorem C13_dials_only_if_map_dead : forall c now st st',
  pool_step c now st PAcq = (st', QMiss) ->
  Forall (fun e => p_closed st (e_sid e) = true) (p_idle st) /\ p_idle st' = [].
Proof. exact acq_dials_only_if_map_dead. Qed.
Print Assumptions C13_dials_only_if_map_dead.

(* sequential reuse, outside the known class: in every client history in which no reuse has happened yet, every
   live session is in the idle map ... *)
Theorem C13_live_sessions_in_map_until_first_reuse : forall c h,
  Forall (fun x => client_op (snd x)) h ->
  p_hits (pool_run c pool_init h) = 0%N -> complete (pool_run c pool_init h).
Proof. intros c h H. exact (ki_complete _ (client_run c h H)). Qed.
Print Assumptions C13_live_sessions_in_map_until_first_reuse.

(* ... and then a request that finds an established healthy session reuses it: no dial, a session that is not
   closed, no new session object (in particular: the second of two sequential requests always reuses) *)
Theorem C13_sequential_reuse_outside_known : forall c now h,
  Forall (fun x => client_op (snd x)) h ->
  let st := pool_run c pool_init h in
  p_hits st = 0%N ->
  (exists sid, (sid < p_n st)%nat /\ p_closed st sid = false) ->
  exists sid st', pool_step c now st PAcq = (st', QHit sid) /\
                  p_dials st' = p_dials st /\ p_closed st sid = false /\ p_n st' = p_n st.
Proof.
  intros c now h Hc st H0 Hl. apply acq_reuses_if_complete; [|assumption].
  exact (ki_complete _ (client_run c h Hc) H0).
Qed.
Print Assumptions C13_sequential_reuse_outside_known.

(* inside the known class it fails: the third sequential request dials although session 0 is live and unused *)
Theorem C13_known_F3_witness_third_request_dials :
  let st := pool_run cfg1 pool_init h_F3 in
  Forall (fun x => client_op (snd x)) h_F3 /\
  p_hits st = 1%N /\ p_closed st 0%nat = false /\ p_busy st 0%nat = 0%N /\ p_streams st = 0%N /\
  p_idle st = [] /\ snd (pool_step cfg1 5000 st PAcq) = QMiss /\
  p_dials (fst (pool_step cfg1 5000 st PAcq)) = 2%N.
Proof. exact C13_known_F3_witness. Qed.
Print Assumptions C13_known_F3_witness_third_request_dials.

(* bounded, the part that holds for every client history: live sessions that are still in the idle map, plus dials
   in flight, never exceed the peak number of simultaneous requests *)
Theorem C13_bounded_map : forall c h, Forall (fun x => client_op (snd x)) h ->
  let st := pool_run c pool_init h in
  (N.of_nat (live_in_map st) + p_pending st <= p_peak st)%N.
Proof. intros c h H. exact (bi_map _ (ki_count _ (client_run c h H))). Qed.
Print Assumptions C13_bounded_map.

(* bounded, what holds of all live sessions: peak + one per reuse so far (the exact size of the F3 leak) *)
Theorem C13_bounded_leak : forall c h, Forall (fun x => client_op (snd x)) h ->
  let st := pool_run c pool_init h in
  (N.of_nat (live st) <= p_peak st + p_hits st)%N.
Proof. intros c h H. exact (binv_live_bound _ (ki_count _ (client_run c h H))). Qed.
Print Assumptions C13_bounded_leak.

(* bounded, outside the known class *)
Theorem C13_bounded_outside_known : forall c h, Forall (fun x => client_op (snd x)) h ->
  let st := pool_run c pool_init h in
  p_hits st = 0%N -> (N.of_nat (live st) <= p_peak st + c_min c)%N.
Proof.
  intros c h H st H0. pose proof (binv_live_bound _ (ki_count _ (client_run c h H))) as P. fold st in P.
  rewrite H0, N.add_0_r in P. eapply N.le_trans; [exact P | apply N.le_add_r].
Qed.
Print Assumptions C13_bounded_outside_known.

(* inside it fails without bound: strictly sequential requests, n live sessions for every n *)
Theorem C13_known_F3_witness_unbounded : forall c n,
  let st := pool_run c pool_init (rounds n) in
  Forall (fun x => client_op (snd x)) (rounds n) /\ (p_peak st <= 1)%N /\ live st = n.
Proof. exact C13_known_F3_unbounded. Qed.
Print Assumptions C13_known_F3_witness_unbounded.

(* non-vacuity: after one request the hypotheses of C13_sequential_reuse_outside_known hold, and the second request
   reuses session 0 without dialling *)
Example C13_nonvacuous :
  let h := [(1000, PAcq); (1000, PCreate); (2000, PDone 0%nat)] in
  let st := pool_run cfg1 pool_init h in
  Forall (fun x => client_op (snd x)) h /\ p_hits st = 0%N /\ p_closed st 0%nat = false /\ p_n st = 1%nat /\
  snd (pool_step cfg1 3000 st PAcq) = QHit 0%nat /\ p_dials (fst (pool_step cfg1 3000 st PAcq)) = 1%N.
Proof. cbv zeta. split; [repeat constructor|]. vm_compute. repeat split. Qed.

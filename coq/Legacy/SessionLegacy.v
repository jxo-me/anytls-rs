(* SessionLegacy.v -- the data path as it was on the pinned tree (1e92959), before the repairs
     849f1f6  (D1) encoder wrote `len as u16` and the whole payload; write_data_frame did not split
     93f3572  (D2) StreamReader returned an empty chunk as a 0-byte read
   with machine-checked witnesses that C01 fails for them.  The witnesses are also stored in
   corpus/C01/ and replayed against the implementation on every run. *)
From Coq Require Import List NArith ZArith Bool.
From AnyTLS Require Import Bytes Cmd Generated Frame Reader Session BytesFacts FrameProofs SessHandle SessPipe.
Import ListNotations.
Import Sess.
Open Scope N_scope.

(* codec.rs :98-115 on the pinned tree: `dst.put_u16(data_len as u16)` then the whole payload *)
Definition encode_legacy (f : frame) : bytes :=
  byte_of_cmd (fcmd f) :: be32 (fsid f) ++ be16 (u16_of (lenN (fdata f))) ++ fdata f.

(* session.rs write_data_frame on the pinned tree: one PSH frame per submitted chunk *)
Definition write_data_legacy (sid : N) (d : bytes) : bytes := encode_legacy (mk Push sid d).

(* what the receiving session queues for stream sid when the legacy sender writes the chunks *)
Definition pipe_legacy (sid : N) (chunks : list bytes) : bytes :=
  concat (pushes sid (fst (decode_all (concat (map (write_data_legacy sid) chunks))))).

Lemma decode_zeros_sid b :
  Forall (fun x => x = 0) b -> Forall (fun r => rsid r = 0) (fst (decode_all_raw b)).
Proof.
  pattern b, (decode_all_raw b). apply decode_all_raw_ind; clear b; [constructor|].
  intros b f rest fs r E IH Hz.
  destruct (decode1_raw_some _ _ _ E) as (c & s3 & s2 & s1 & s0 & l1 & l0 & body & -> & _ & -> & ->).
  repeat (apply Forall_cons_iff in Hz; destruct Hz as [-> Hz]).
  constructor; [reflexivity | exact (IH Hz)].
Qed.

(* a chunk whose length is a multiple of 65536 goes out under a length field of 0 *)
Lemma legacy_wraps sid d :
  u16_of (lenN d) = 0 ->
  write_data_legacy sid d = encode_raw {| rcmd := byte_of_cmd Push; rsid := sid; rdata := [] |} ++ d.
Proof.
  intros H. unfold write_data_legacy, encode_legacy, encode_raw, be32, be16.
  cbn [mk fcmd fsid fdata rcmd rsid rdata app]. rewrite H. reflexivity.
Qed.

(* ... and if it consists of zero bytes the receiver sees an empty PSH for the stream followed by zero bytes, which
   it decodes as frames of stream 0: nothing of the chunk is queued *)
Lemma legacy_drops sid d :
  u16_of (lenN d) = 0 -> Forall (fun x => x = 0) d -> sid <> 0 -> sid < 4294967296 -> d <> [] ->
  pipe_legacy sid [d] <> concat [d].
Proof.
  intros Hu Hz Hs Hlt Hd. unfold pipe_legacy. cbn [map concat]. rewrite !app_nil_r, legacy_wraps by exact Hu.
  unfold decode_all. rewrite decode_all_raw_unfold, decode1_raw_encode_raw
    by (split; [apply byte_of_cmd_lt | split; [exact Hlt | split; [constructor | discriminate]]]).
  apply decode_zeros_sid in Hz. destruct (decode_all_raw d) as [fs r]. cbn [fst map] in *.
  assert (Hp : pushes sid (map cook fs) = []).
  { induction Hz as [|g gs Hg _ IH]; [reflexivity|]. unfold pushes, is_push_for in *. cbn [map filter cook fsid].
    rewrite Hg, (proj2 (N.eqb_neq 0 sid)), andb_false_r by congruence. exact IH. }
  change (?x :: map cook fs) with ([x] ++ map cook fs). rewrite pushes_app, Hp, app_nil_r.
  unfold pushes, is_push_for, cook. cbn [filter rcmd rsid rdata fcmd fsid]. rewrite cmd_byte_roundtrip, N.eqb_refl.
  cbn. congruence.
Qed.

Lemma C01_refuted_big :
  exists chunks, pipe_legacy 1 chunks <> concat chunks.
Proof.
  exists [zeros 65536]. apply legacy_drops.
  - rewrite lenN_zeros. reflexivity.
  - apply zeros_all_zero.
  - discriminate.
  - reflexivity.
  - intros H. apply (f_equal (@lenN N)) in H. rewrite lenN_zeros in H. discriminate H.
Qed.

(* stream_reader.rs read :72-95 on the pinned tree: the next queued chunk is returned whatever its size *)
Definition rd_read_legacy (st : Reader.rd) (cap : N) : Reader.rd * rres :=
  if reof st && is_nil (rbuf st) then (st, REof)
  else if negb (is_nil (rbuf st)) then
    let n := N.min (lenN (rbuf st)) cap in
    ({| rq := rq st; rclosed := rclosed st; rbuf := dropN n (rbuf st); reof := reof st |},
     RData (takeN n (rbuf st)))
  else
    match rq st with
    | c :: q' =>
        let n := N.min (lenN c) cap in
        ({| rq := q'; rclosed := rclosed st; rbuf := dropN n c; reof := reof st |}, RData (takeN n c))
    | [] =>
        if rclosed st
        then ({| rq := []; rclosed := true; rbuf := []; reof := true |}, REof)
        else ({| rq := []; rclosed := false; rbuf := []; reof := reof st |}, RPending)
    end.

(* every forwarding loop of the crate: read until a 0-byte read (`Ok(0) => break`) *)
Fixpoint forward_loop_legacy (fuel : nat) (st : Reader.rd) (cap : N) : bytes :=
  match fuel with
  | O => []
  | S k =>
      match rd_read_legacy st cap with
      | (st', RData b) => if is_nil b then [] else b ++ forward_loop_legacy k st' cap
      | _ => []
      end
  end.

Definition reader_legacy (chunks : list bytes) : bytes :=
  forward_loop_legacy (S (length (concat chunks)) + length chunks)
    {| rq := chunks; rclosed := true; rbuf := []; reof := false |} 8192.

Lemma C01_refuted_empty :
  exists chunks, reader_legacy chunks <> concat chunks.
Proof. exists [[1]; []; [1]]. vm_compute. discriminate. Qed.

(* the repaired model does deliver both witnesses *)
Lemma C01_witnesses_now_pass :
  bytes_eqb (concat (pushes 1 (data_frames 1 (zeros 65536)))) (zeros 65536) = true /\
  (let '(_, got, e) := rd_read_script {| rq := [[1]; []; [1]]; rclosed := true; rbuf := []; reof := false |}
                                       [8192; 8192; 8192] in (got, e)) = ([1; 1], true).
Proof.
  split; [|vm_compute; reflexivity].
  rewrite pushes_data_frames, N.eqb_refl, concat_split_chunk. apply bytes_eqb_refl.
Qed.

(* ParsersLegacy.v -- models of the PINNED (pre-fix) behaviour where it violates C07 (port of a cached address),
   C16 (SOCKS5 command byte, empty method list) or C15 (empty datagram, family of the UDP socket), with
   machine-checked witnesses.  The witnesses are replayed on the implementation from corpus/C07, corpus/C16,
   corpus/C15. *)
From Coq Require Import List NArith ZArith Bool.
From AnyTLS Require Import Bytes Reader ReaderProg Generated Dest Socks5 DnsCache.
Import ListNotations.
Open Scope N_scope.

(* D5 (C07): the cache hit returned the cached SocketAddr, port included *)
Section LegacyDns.
  Variable parse_ip : bytes -> option ip.
  Variable resolve : Z -> bytes -> list ip.

  Definition dns_request_legacy (c : cache) (now : Z) (host : bytes) (port : N) : cache * option sockaddr :=
    match parse_ip host with
    | Some i => (c, Some (i, port))
    | None =>
        match cache_get c now host with
        | Some a => (cache_advance c host, Some a)                 (* <- the defect: `return Ok(addr)` *)
        | None =>
            match sort_addrs (map (fun i => (i, port)) (resolve now host)) with
            | [] => (c, None)
            | a :: rest => (cache_advance (cache_fill c now host (a :: rest)) host, Some a)
            end
        end
    end.

  Fixpoint dns_run_legacy (c : cache) (h : list (Z * hop)) : list answer :=
    match h with
    | [] => []
    | (t, HReq host port) :: h' =>
        let '(c', r) := dns_request_legacy c t host port in
        {| a_time := t; a_host := host; a_port := port; a_res := r |} :: dns_run_legacy c' h'
    | (t, HClear) :: h' => dns_run_legacy [] h'
    end.
End LegacyDns.

Definition localhost : bytes := [108; 111; 99; 97; 108; 104; 111; 115; 116].

(* localhost:80 then localhost:443 within the TTL is answered 127.0.0.1:80 *)
Lemma C07_refuted_cache :
  exists h a, In a (dns_run_legacy (fun _ => None) (fun _ _ => [[127; 0; 0; 1]]) [] h) /\
              a_port a = 443 /\ a_res a = Some ([127; 0; 0; 1], 80).
Proof.
  exists [(0%Z, HReq localhost 80); (1%Z, HReq localhost 443)].
  eexists. split; [right; left; reflexivity|]. split; reflexivity.
Qed.

(* the repaired model on the same history *)
Lemma C07_cache_witness_repaired :
  map a_res (dns_run (fun _ => None) (fun _ _ => [[127; 0; 0; 1]]) []
               [(0%Z, HReq localhost 80); (1%Z, HReq localhost 443)])
  = [Some ([127; 0; 0; 1], 80); Some ([127; 0; 0; 1], 443)].
Proof. vm_compute. reflexivity. Qed.

(* D10 (C16): the command byte was parsed and ignored *)
Definition socks_after_greeting_legacy (open_ok : dest -> N -> bool) (r : bytes) : list sev :=
  match run_bytes request_prog r with
  | NeedMore => []
  | Reject _ => [SEnd]
  | Accept q r2 =>
      SOpen (q_dest q) (q_port q) ::
      (if open_ok (q_dest q) (q_port q)
       then [SWrite (reply_bytes socks_reply_succeeded); STunnel r2]
       else [SWrite (reply_bytes socks_reply_general_failure); SEnd])
  end.

(* pinned greeting: NMETHODS = 0 is an error before any reply is written *)
Definition socks_session_legacy (open_ok : dest -> N -> bool) (b : bytes) : list sev :=
  match run_bytes greeting_prog b with
  | NeedMore => []
  | Reject _ => [SEnd]
  | Accept ms r =>
      if lenN ms =? 0 then [SEnd]
      else if offers_noauth ms then SWrite (method_reply ms) :: socks_after_greeting_legacy open_ok r
      else [SWrite (method_reply ms); SEnd]
  end.

(* BIND (2) for 127.0.0.1:80 opens a TCP tunnel and is answered 'succeeded' *)
Lemma C16_refuted_connect_only :
  exists b, socks_session_legacy (fun _ _ => true) b =
    [SWrite [5; 0]; SOpen (DV4 [127; 0; 0; 1]) 80; SWrite (reply_bytes 0); STunnel []] /\
    run_bytes request_prog (skipn 3 b) = Accept {| q_cmd := 2; q_dest := DV4 [127; 0; 0; 1]; q_port := 80 |} [].
Proof. exists [5; 1; 0; 5; 2; 0; 1; 127; 0; 0; 1; 0; 80]. split; vm_compute; reflexivity. Qed.

Lemma C16_connect_witness_repaired :
  socks_session (fun _ _ => true) [5; 1; 0; 5; 2; 0; 1; 127; 0; 0; 1; 0; 80] =
  [SWrite [5; 0]; SWrite (reply_bytes 7); SEnd].
Proof. vm_compute. reflexivity. Qed.

(* an empty method list was dropped without the [5;255] refusal *)
Lemma C16_refuted_empty_methods :
  exists b, socks_session_legacy (fun _ _ => true) b = [SEnd] /\
            socks_session (fun _ _ => true) b = [SWrite [5; 255]; SEnd].
Proof. exists [5; 0]. split; vm_compute; reflexivity. Qed.

(* C15: an empty datagram ended the association (fixed by c7f42e2) *)
From AnyTLS Require Import Udp.

(* pinned loops: `if payload.is_empty() { break }` = udp_loop with stop = true.  Three datagrams are sent,
   the second one empty: the third is never delivered *)
Lemma C15_refuted_empty_datagram :
  exists ds, Forall (fun d => lenN d <= 65535) ds /\
    udp_decode_all true 65535 (concat (map udp_frame ds)) = ([[65]], UStop (udp_frame [66])) /\
    udp_decode_all false 65535 (concat (map udp_frame ds)) = (ds, UMore []).
Proof.
  exists [[65]; []; [66]]. split; [repeat constructor; vm_compute; discriminate|].
  split; vm_compute; reflexivity.
Qed.

(* C07/C15: the server's UDP socket was always AF_INET (fixed by 504704f) *)
Definition udp_bind_fam_legacy (target : fam_t) : fam_t := F4.      (* UdpSocket::bind("0.0.0.0:0") *)

Lemma C15_refuted_ipv6_target : exists t, udp_can_send (udp_bind_fam_legacy t) t = false.
Proof. exists F6. reflexivity. Qed.

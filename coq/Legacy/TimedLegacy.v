(* TimedLegacy.v -- (1) the PINNED liveness rule of the heartbeat task (before the repair of D9):
     tick: closed? -> exit; now - last_received > timeout -> close; else send HeartRequest
     HeartResponse: last_received := now
   with machine-checked witnesses that it closes sessions whose peer answers every keep-alive in time, and
   the exact class of (interval, timeout) pairs for which it does not;
   (2) witnesses of the two KNOWN FINDINGS of the pool glue, which is unrepaired (Model/Pool.v is the current
   code): F2 (the reaper closes a session that carries a live stream) and F3 (a reused session is never
   returned to the idle map: re-dials and unbounded growth of live sessions). *)
From Coq Require Import List NArith ZArith Bool Lia.
From AnyTLS Require Import BytesFacts Generated Pool PoolProofs PoolReuseProofs Heartbeat HeartbeatProofs.
Import ListNotations.
Open Scope Z_scope.

Record lhb := { l_last : Z; l_closed : option Z; l_sent : list Z }.
Definition lhb_init : lhb := {| l_last := 0; l_closed := None; l_sent := [] |}.

Definition lhb_step (T : Z) (st : lhb) (e : hbev) : lhb :=
  match l_closed st with
  | Some _ => st
  | None =>
      match e with
      | HTick t =>
          if T <? t - l_last st
          then {| l_last := l_last st; l_closed := Some t; l_sent := l_sent st |}
          else {| l_last := l_last st; l_closed := None; l_sent := t :: l_sent st |}
      | HResp a => {| l_last := a; l_closed := None; l_sent := l_sent st |}
      end
  end.
Definition lhb_run (T : Z) (st : lhb) (evs : list hbev) : lhb := fold_left (lhb_step T) evs st.

Lemma lhb_run_cons : forall T st e evs, lhb_run T st (e :: evs) = lhb_run T (lhb_step T st e) evs.
Proof. reflexivity. Qed.

(* I = 30 s, T = 10 s (timeout < interval), the peer answers at once: closed at the second tick.
   Observed on the pinned code under virtual time: `hb s 30000 10000 100000 0 0 0 0` -> closed at 30000. *)
Definition w_T_lt_I : list hbev := [HTick 0; HResp 0; HTick 30000; HResp 30000; HTick 60000; HResp 60000].

Lemma C14_refuted_timeout_below_interval :
  in_time 10000 w_T_lt_I /\ l_closed (lhb_run 10000 lhb_init w_T_lt_I) = Some 30000 /\
  hb_closed (hb_run 10000 hb_init w_T_lt_I) = None.
Proof. split; [cbn; lia|split; vm_compute; reflexivity]. Qed.

(* I = 30 s, T = 40 s (timeout > interval, not a multiple), delays 0 s then 39 s: closed at t = 60 s although
   every request is answered within 40 s. Observed: `hb s 30000 40000 200000 0 39000 0 39000 ..` -> closed at 60000. *)
Definition w_T_gt_I : list hbev :=
  [HTick 0; HResp 0; HTick 30000; HTick 60000; HResp 60000; HResp 69000; HTick 90000; HResp 90000].

Lemma C14_refuted_interval_not_dividing_timeout :
  in_time 40000 w_T_gt_I /\ l_closed (lhb_run 40000 lhb_init w_T_gt_I) = Some 60000 /\
  hb_closed (hb_run 40000 hb_init w_T_gt_I) = None.
Proof. split; [cbn; lia|split; vm_compute; reflexivity]. Qed.

Definition cfg0 := {| c_timeout := 60000; c_min := 0%N |}.
Definition cfg1 := {| c_timeout := 60000; c_min := 1%N |}.

(* F2, minimal history with min_idle = 0: one request whose stream stays open; the reaper pass at 90 s
   (interval 30 s, timeout 60 s) closes the session that carries it.
   Observed: `pool 30000 60000 0 1000:r 30000:t 60000:t 90000:t` -> i0,C0 after the third tick. *)
Definition h_F2_min0 : list (Z * poolop) :=
  [(1000, PAcq); (1000, PCreate); (30000, PTick); (60000, PTick)].

Lemma C12_known_F2_witness_min_idle_0 :
  let st := pool_run cfg0 pool_init h_F2_min0 in
  Forall (fun x => client_op (snd x)) h_F2_min0 /\
  p_closed st 0%nat = false /\ p_busy st 0%nat = 1%N /\
  (exists e, In e (p_idle st) /\ e_sid e = 0%nat) /\
  p_closed (fst (pool_step cfg0 90000 st PTick)) 0%nat = true.
Proof.
  cbv zeta. split; [repeat constructor|]. split; [vm_compute; reflexivity|]. split; [vm_compute; reflexivity|].
  split; [|vm_compute; reflexivity]. eexists. split; [vm_compute; left; reflexivity|reflexivity].
Qed.

(* F2 with min_idle = 1: two requests arrive together at an empty pool, both dial; one of the two busy
   sessions is closed. Observed: `pool 30000 60000 1 1000:a 1010:a 1020:c 1030:c 30000:t 60000:t 90000:t`. *)
Definition h_F2_two : list (Z * poolop) :=
  [(1000, PAcq); (1010, PAcq); (1020, PCreate); (1030, PCreate); (30000, PTick); (60000, PTick)].

Lemma C12_known_F2_witness_concurrent :
  let st := pool_run cfg1 pool_init h_F2_two in
  p_closed st 1%nat = false /\ p_busy st 1%nat = 1%N /\ p_peak st = 2%N /\
  p_closed (fst (pool_step cfg1 90000 st PTick)) 1%nat = true /\
  p_closed (fst (pool_step cfg1 90000 st PTick)) 0%nat = false.
Proof. cbv zeta. repeat split; vm_compute; reflexivity. Qed.

(* F3: sequential requests on a healthy server. The second reuses session 0; the third dials although session 0
   is live and unused, because the second request took it out of the map and nothing put it back.
   Observed: `pool 30000 60000 1 1000:r 2000:d0 3000:r 4000:d0 5000:r` -> n0 u0 n1, dials=2. *)
Definition h_F3 : list (Z * poolop) :=
  [(1000, PAcq); (1000, PCreate); (2000, PDone 0%nat); (3000, PAcq); (4000, PDone 0%nat)].

Lemma C13_known_F3_witness :
  let st := pool_run cfg1 pool_init h_F3 in
  Forall (fun x => client_op (snd x)) h_F3 /\
  p_hits st = 1%N /\                              (* the second request reused *)
  p_closed st 0%nat = false /\ p_busy st 0%nat = 0%N /\ p_streams st = 0%N /\   (* live, unused, nothing in progress *)
  p_idle st = [] /\                               (* but not in the map *)
  snd (pool_step cfg1 5000 st PAcq) = QMiss /\    (* so the third request dials *)
  p_dials (fst (pool_step cfg1 5000 st PAcq)) = 2%N.
Proof. cbv zeta. split; [repeat constructor|]. repeat split; vm_compute; reflexivity. Qed.

(* unbounded growth: n rounds of (request, done, request, done) leave n live sessions with peak concurrency 1 *)
Fixpoint rounds (n : nat) : list (Z * poolop) :=
  match n with
  | O => []
  | S k => rounds k ++ [(0, PAcq); (0, PCreate); (0, PDone k); (0, PAcq); (0, PDone k)]
  end.

Record grown (n : nat) (st : pool) : Prop := {
  g_n : p_n st = n; g_idle : p_idle st = [];
  g_live : forall k, (k < n)%nat -> p_closed st k = false;
  g_pend : p_pending st = 0%N; g_str : p_streams st = 0%N;
  g_peak : (p_peak st <= 1)%N;
  g_busy : forall k, p_busy st k = 0%N
}.

Lemma grown_init : grown 0 pool_init.
Proof. constructor; cbn; auto; try lia. Qed.

(* one operation of a history at a time, the state kept in evaluated form *)
Local Ltac step := rewrite run_cons; unfold p_active;
  cbn [fst snd pool_step p_n p_closed p_seq p_tbl p_busy p_idle p_nextseq p_dials p_pending p_streams p_peak p_hits].

Lemma grown_round : forall c k st, grown k st ->
  grown (S k) (pool_run c st [(0, PAcq); (0, PCreate); (0, PDone k); (0, PAcq); (0, PDone k)]).
Proof.
  intros c k st G. destruct st as [n cl sq tb bs idl nx dl pd sr pk ht].
  destruct G as [G1 G2 G3 G4 G5 G6 G7]. cbn in G1, G2, G3, G4, G5, G6, G7. subst.
  (* the request finds the map empty and dials *)
  step. rewrite get_idle_nil. cbn [fst].
  step. change (0 + 1 =? 0)%N with false. change client_adds_new_session_to_idle with true.
  cbn [fst]. rewrite add_idle_eq, pupd_same. cbn [bt_insert].
  step. rewrite !pupd_same. change (0 <? 1)%N with true. cbn [fst].
  (* the next request takes session k out of the map; nothing puts it back *)
  step. rewrite get_idle_one by apply pupd_same. change client_reinserts_on_reuse with false.
  cbn [fst e_sid]. rewrite !pupd_same.
  step. rewrite !pupd_same. change (0 <? 1 - 1 + 1)%N with true. cbn [fst].
  constructor; cbn.
  - reflexivity.
  - reflexivity.
  - intros j Hj. destruct (Nat.eqb_spec j k) as [->|Hne]; [apply pupd_same|]. rewrite pupd_other by assumption. apply G3. lia.
  - reflexivity.
  - reflexivity.
  - lia.
  - intros j. unfold pupd. destruct (Nat.eqb j k); [reflexivity|apply G7].
Qed.

Lemma rounds_grow : forall c n, grown n (pool_run c pool_init (rounds n)).
Proof.
  intros c n. induction n as [|k IH]; [apply grown_init|].
  cbn [rounds]. rewrite run_app. apply grown_round. exact IH.
Qed.

(* the bound of C13_bounded_outside_known (live <= peak + min_idle) fails on the current code once sessions are
   reused: for every n there is a history of strictly sequential requests (at most one request in progress at
   any time) on a healthy server after which n sessions are live *)
Theorem C13_known_F3_unbounded : forall c n,
  let st := pool_run c pool_init (rounds n) in
  Forall (fun x => client_op (snd x)) (rounds n) /\ (p_peak st <= 1)%N /\ live st = n.
Proof.
  intros c n. cbv zeta. pose proof (rounds_grow c n) as G. split; [|split].
  - induction n as [|k IH]; [constructor|]. cbn [rounds]. apply Forall_app. split; [apply IH; apply rounds_grow|].
    repeat constructor.
  - exact (g_peak _ _ G).
  - unfold live, cnt. rewrite (g_n _ _ G).
    assert (E : filter (fun k => negb (p_closed (pool_run c pool_init (rounds n)) k)) (seq 0 n) = seq 0 n).
    { apply filter_all_true, Forall_forall. intros x Hx. apply in_seq in Hx.
      rewrite (g_live _ _ G x) by lia. reflexivity. }
    rewrite E. apply seq_length.
Qed.

(* the exact class of the pinned rule.
   Traces: time-ordered from 0 (chrono), ticks at 0, I, 2I, .. (periodic_from I 0), the peer answers every
   request in time (in_time T). Ties between an answer and a tick are resolved by the order in the trace,
   i.e. adversarially. The pinned rule keeps every such session open exactly when I divides T. *)
Fixpoint chrono (prev : Z) (evs : list hbev) : Prop :=
  match evs with
  | [] => True
  | e :: r => prev <= hbev_time e /\ chrono (hbev_time e) r
  end.

Fixpoint periodic_from (I m : Z) (evs : list hbev) : Prop :=
  match evs with
  | [] => True
  | HTick t :: r => t = m * I /\ periodic_from I (m + 1) r
  | HResp _ :: r => periodic_from I m r
  end.

Definition legacy_sound (I T : Z) : Prop :=
  forall evs, chrono 0 evs -> periodic_from I 0 evs -> in_time T evs ->
    l_closed (lhb_run T lhb_init evs) = None.

(* m ticks have been processed, the last p of them since the last answer; prev = instant of the last event *)
Lemma legacy_run_inv : forall I a, 0 < I -> 0 < a -> forall rest st m p prev,
  l_closed st = None -> 0 <= p <= m -> 0 <= prev ->
  (m - p - 1) * I <= l_last st ->
  (0 < p -> answered (a * I) ((m - p) * I) rest) ->
  (1 <= m -> (m - 1) * I <= prev) ->
  chrono prev rest -> periodic_from I m rest -> in_time (a * I) rest ->
  l_closed (lhb_run (a * I) st rest) = None.
Proof.
  intros I a HI Ha rest. induction rest as [|e rest IH]; intros st m p prev Hc Hp Hprev Hl Hans Hm Hch Hper Hin;
    [exact Hc|].
  rewrite lhb_run_cons.
  destruct e as [t|r0]; cbn [chrono periodic_from in_time hbev_time] in Hch, Hper, Hin.
  - destruct Hper as [-> Hper]. destruct Hch as [Hpt Hch]. destruct Hin as [Hat Hin].
    assert (Hpa : p + 1 <= a).
    { destruct (Z.eq_dec p 0) as [->|Hne]; [lia|].
      specialize (Hans ltac:(lia)). cbn in Hans. destruct Hans as [Hlt _]. nia. }
    unfold lhb_step. rewrite Hc.
    destruct (Z.ltb_spec (a * I) (m * I - l_last st)) as [Hbad|Hok]; [nia|].
    (* the tick at m * I is one more unanswered tick; only the answer still due to the oldest one needs an argument *)
    apply (IH _ (m + 1) (p + 1) (m * I)); cbn [l_closed l_last];
      [reflexivity | lia | nia | nia | | nia | exact Hch | exact Hper | exact Hin].
    intros _. replace ((m + 1 - (p + 1)) * I) with ((m - p) * I) by ring.
    destruct (Z.eq_dec p 0) as [->|Hne].
    + replace ((m - 0) * I) with (m * I) by ring. assumption.
    + specialize (Hans ltac:(lia)). cbn in Hans. tauto.
  - destruct Hch as [Hpt Hch].
    unfold lhb_step. rewrite Hc.
    assert (Hr : (m - 0 - 1) * I <= r0).
    { destruct (Z.eq_dec m 0) as [->|Hne]; [nia|]. specialize (Hm ltac:(lia)). nia. }
    apply (IH _ m 0 r0); cbn [l_closed l_last]; try reflexivity; try lia; try assumption.
Qed.

Lemma legacy_sound_multiple : forall I a, 0 < I -> 0 < a -> legacy_sound I (a * I).
Proof.
  intros I a HI Ha evs Hch Hper Hin.
  apply (legacy_run_inv I a HI Ha evs lhb_init 0 0 0); cbn [lhb_init l_closed l_last]; try reflexivity; try lia; assumption.
Qed.

Theorem legacy_sound_if_divides : forall I T, 0 < I -> 0 < T -> T mod I = 0 -> legacy_sound I T.
Proof.
  intros I T HI HT Hd.
  assert (E : T = (T / I) * I) by (pose proof (Z.div_mod T I ltac:(lia)); lia).
  assert (Ha : 0 < T / I) by (destruct (Z_lt_le_dec 0 (T / I)) as [?|Hq]; [assumption|exfalso; nia]).
  replace T with (T / I * I) by (symmetry; exact E).
  replace (T / I * I / I) with (T / I) by (rewrite <- E; reflexivity).
  apply legacy_sound_multiple; assumption.
Qed.

(* the witness when I does not divide T = a*I + r, 0 < r < I: tick 0 is answered at once; the answers to
   the ticks I .. (a+1)*I may all arrive later than (a+1)*I (each still within T); the tick at (a+1)*I finds the
   last answer older than T *)
Fixpoint upticks (I j : Z) (n : nat) : list hbev :=
  match n with
  | O => []
  | S n' => HTick (j * I) :: upticks I (j + 1) n'
  end.

Lemma answered_upticks : forall I T s n j, 0 < I ->
  (j + Z.of_nat n - 1) * I < s + T -> answered T s (upticks I j n).
Proof.
  intros I T s n. induction n as [|n IH]; intros j HI H; [exact Logic.I|]. cbn [upticks answered].
  split; [nia|]. apply IH; [assumption|]. nia.
Qed.

Lemma in_time_upticks : forall I T n j, 0 < I ->
  (Z.of_nat n - 1) * I < T -> in_time T (upticks I j n).
Proof.
  intros I T n. induction n as [|n IH]; intros j HI H; [exact Logic.I|]. cbn [upticks in_time].
  split.
  - apply answered_upticks; [assumption|]. nia.
  - apply IH; [assumption|]. nia.
Qed.

Lemma chrono_upticks : forall I n j prev, 0 < I -> prev <= j * I -> chrono prev (upticks I j n).
Proof.
  intros I n. induction n as [|n IH]; intros j prev HI H; [exact Logic.I|]. cbn [upticks chrono hbev_time].
  split; [assumption|]. apply IH; [assumption|nia].
Qed.

Lemma periodic_upticks : forall I n j, periodic_from I j (upticks I j n).
Proof.
  intros I n. induction n as [|n IH]; intros j; [exact Logic.I|]. cbn [upticks periodic_from]. split; [reflexivity|apply IH].
Qed.

(* with last = 0: ticks up to T are survived, the first tick beyond T closes *)
Lemma legacy_upticks : forall I T n j st, 0 <= j ->
  l_closed st = None -> l_last st = 0 ->
  (j + Z.of_nat n - 1) * I <= T -> T < (j + Z.of_nat n) * I ->
  l_closed (lhb_run T st (upticks I j (S n))) = Some ((j + Z.of_nat n) * I).
Proof.
  intros I T n. induction n as [|n IH]; intros j st Hj Hc Hl Hle Hgt.
  - cbn [upticks lhb_run fold_left]. unfold lhb_step. rewrite Hc, Hl.
    destruct (Z.ltb_spec T (j * I - 0)) as [_|Hno]; [cbn; f_equal; lia|cbn in *; nia].
  - change (upticks I j (S (S n))) with (HTick (j * I) :: upticks I (j + 1) (S n)).
    rewrite lhb_run_cons.
    unfold lhb_step at 1. rewrite Hc, Hl.
    destruct (Z.ltb_spec T (j * I - 0)) as [Hbad|_]; [nia|].
    rewrite Nat2Z.inj_succ in *. rewrite (IH (j + 1)); cbn [l_closed l_last]; try reflexivity; try lia; try assumption.
    f_equal. ring.
Qed.

Lemma legacy_prefix : forall T rest, 0 < T ->
  lhb_run T lhb_init (HTick 0 :: HResp 0 :: rest) =
  lhb_run T {| l_last := 0; l_closed := None; l_sent := [0] |} rest.
Proof.
  intros T rest HT. unfold lhb_run. cbn [fold_left]. f_equal.
  unfold lhb_step, lhb_init. cbn [l_closed l_last l_sent].
  destruct (Z.ltb_spec T (0 - 0)) as [Hb|_]; [lia|]. reflexivity.
Qed.

Theorem legacy_unsound_if_not_divides : forall I T, 0 < I -> 0 < T -> T mod I <> 0 -> ~ legacy_sound I T.
Proof.
  intros I T HI HT Hnd Hs.
  pose proof (Z.div_mod T I ltac:(lia)) as D. pose proof (Z.mod_pos_bound T I HI) as M.
  set (a := T / I) in *. set (r := T mod I) in *.
  assert (Ha : 0 <= a) by (apply Z.div_pos; lia).
  set (evs := HTick 0 :: HResp 0 :: upticks I 1 (S (Z.to_nat a))).
  assert (Hn : Z.of_nat (Z.to_nat a) = a) by (apply Z2Nat.id; assumption).
  specialize (Hs evs).
  assert (C : l_closed (lhb_run T lhb_init evs) = Some ((1 + a) * I)).
  { subst evs. rewrite legacy_prefix by assumption.
    rewrite (legacy_upticks I T (Z.to_nat a) 1); cbn [l_closed l_last]; try lia; try reflexivity; rewrite ?Hn; try nia.
    f_equal. }
  rewrite Hs in C; [discriminate| | |].
  - subst evs. cbn [chrono hbev_time]. split; [lia|]. split; [lia|]. apply chrono_upticks; lia.
  - subst evs. cbn [periodic_from]. split; [lia|]. apply periodic_upticks.
  - subst evs. cbn [in_time answered]. split; [lia|]. apply in_time_upticks; [assumption|].
    rewrite Nat2Z.inj_succ, Hn. nia.
Qed.

(* D9, the characterisation: for positive interval and timeout, the pinned rule never closes a session whose peer
   answers in time  <->  the interval divides the timeout. (In particular it fails for every timeout < interval; the
   default 30 s / 60 s is inside the sound class.) *)
Theorem C14_legacy_sound_class : forall I T, 0 < I -> 0 < T -> (legacy_sound I T <-> T mod I = 0).
Proof.
  intros I T HI HT. split.
  - intros Hs. destruct (Z.eq_dec (T mod I) 0) as [E|E]; [assumption|].
    exfalso. exact (legacy_unsound_if_not_divides I T HI HT E Hs).
  - apply legacy_sound_if_divides; assumption.
Qed.

(* CertReloadLegacy.v -- the PINNED (pre-fix, /repo @ 1e92959..4c89e5c) behaviour of
   CertReloader::{new,reload}, kept as a model, with machine-checked witnesses that it violates C18.

   Pinned code:   new_config    = create_server_config_from_files(cert_path, key_path)?   (reads cert, key)
                  new_cert_info = CertificateInfo::from_pem_file(cert_path)?              (reads cert AGAIN)
                  if check_expiry && new_cert_info.is_expired() { return Err }            (whole days)
                  four writes
   Two defects, each reproduced on the real code (corpus/C18/*.cases, replayed on every run):
     D13  the acceptor comes from the first read of the certificate file, the reported information
          and the expiry check from the second: an update landing between the two reads leaves the
          old certificate served while the new one is reported -- or an EXPIRED certificate served
          because the second read saw a fresh one.   fix: 263131d (one read, both from the same bytes)
     D14  is_expired() is `days_until_expiry < 0` with the day count truncated towards zero, so a
          certificate that expired less than 24 h ago has 0 days and is installed.   fix: 977343e *)
From Coq Require Import List NArith ZArith Bool Lia.
From AnyTLS Require Import Generated CertReload.
Import ListNotations.
Open Scope Z_scope.

Section Legacy.
  Variables blob chain pkey ident : Type.
  Variable parse_certs : blob -> option chain.
  Variable parse_key   : blob -> option pkey.
  Variable pair_ok     : chain -> pkey -> bool.
  Variable parse_info  : blob -> option (ident * Z).
  Variable check_expiry : bool.

  Notation cr_analyze := (cr_analyze blob ident parse_info).

  Definition load_legacy (rd : cr_reads blob) (w : Z)
    : (cr_loaded blob chain pkey * option (certinfo ident)) + cr_err :=
    match rd_cert rd with
    | None => inr CrIo
    | Some cb =>
      match parse_certs cb with
      | None => inr CrTls
      | Some ch =>
        match rd_key rd with
        | None => inr CrIo
        | Some kb =>
          match parse_key kb with
          | None => inr CrTls
          | Some k =>
            if pair_ok ch k
            then inl (Build_cr_loaded cb kb ch k,
                      match rd_cert2 rd with      (* from_pem_file: a second open of the path *)
                      | None => None
                      | Some cb2 => cr_analyze w cb2
                      end)
            else inr CrTls
          end
        end
      end
    end.

  Definition new_legacy (rd : cr_reads blob) (c : cr_clock) : cr_state blob chain pkey ident + cr_err :=
    match load_legacy rd (cr_wall_an c) with
    | inr e => inr e
    | inl (l, oi) => inl (Build_cr_state l oi 0%N None)
    end.

  Definition reload_legacy (st : cr_state blob chain pkey ident) (rd : cr_reads blob) (c : cr_clock)
    : cr_state blob chain pkey ident * cr_outcome :=
    match load_legacy rd (cr_wall_an c) with
    | inr e => (st, CrErr e)
    | inl (_, None) => (st, CrErr CrTls)
    | inl (l, Some i) =>
      if check_expiry && cr_is_expired_days (ci_days i) then (st, CrErr CrTls)
      else if (cr_count st =? cr_u64_max)%N
      then (Build_cr_state l (Some i) (cr_count st) (cr_last st), CrPanic)
      else (Build_cr_state l (Some i) (cr_count st + 1)%N (Some (cr_mono c)), CrOk)
    end.
End Legacy.

(* a concrete world: blobs, chains, keys and identities are numbers
   certificate files 1 (key 10), 2 (key 20), 3 (key 10, expired two days before `now`),
   4 (key 10, expired one hour before `now`); key files 10, 20 *)
Definition now_ns : Z := 1790000000 * cr_ns_per_sec.
Definition hour_ns : Z := 3600 * cr_ns_per_sec.
Definition day_ns : Z := 86400 * cr_ns_per_sec.

Definition w_parse_certs (b : N) : option N :=
  if ((b =? 1) || (b =? 2) || (b =? 3) || (b =? 4))%N then Some b else None.
Definition w_parse_key (b : N) : option N := if ((b =? 10) || (b =? 20))%N then Some b else None.
Definition w_pair_ok (ch k : N) : bool :=
  (((ch =? 1) || (ch =? 3) || (ch =? 4)) && (k =? 10) || (ch =? 2) && (k =? 20))%N.
Definition w_parse_info (b : N) : option (N * Z) :=
  match b with
  | 1%N => Some (101%N, now_ns + 3650 * day_ns)
  | 2%N => Some (102%N, now_ns + 3650 * day_ns)
  | 3%N => Some (103%N, now_ns - 2 * day_ns)
  | 4%N => Some (104%N, now_ns - hour_ns)
  | _ => None
  end.
Definition w_clock : cr_clock := {| cr_wall_an := now_ns; cr_wall_chk := now_ns; cr_mono := 7 |}.
Definition stable (c k : N) : cr_reads N := Build_cr_reads (Some c) (Some k) (Some c).

Notation w_new_legacy := (new_legacy N N N N w_parse_certs w_parse_key w_pair_ok w_parse_info).
Notation w_reload_legacy := (reload_legacy N N N N w_parse_certs w_parse_key w_pair_ok w_parse_info true).
Notation w_analyze := (cr_analyze N N w_parse_info).

(* D13a: the certificate file is replaced (1 -> 2) between the two reads of one reload. The reload
   succeeds, certificate 1 keeps being served, certificate 2 is reported as active. *)
Lemma C18_refuted_torn_info :
  exists st0 rd,
    w_new_legacy (stable 1 10) w_clock = inl st0 /\
    snd (w_reload_legacy st0 rd w_clock) = CrOk /\
    let st := fst (w_reload_legacy st0 rd w_clock) in
    l_cert (cr_active st) = 1%N /\
    cr_info st = w_analyze now_ns 2%N /\
    (forall w, cr_info st <> w_analyze w (l_cert (cr_active st))).
Proof.
  eexists. exists (Build_cr_reads (Some 1%N) (Some 10%N) (Some 2%N)).
  split; [vm_compute; reflexivity|].
  split; [vm_compute; reflexivity|].
  cbv zeta. split; [vm_compute; reflexivity|]. split; [vm_compute; reflexivity|].
  intros w H. apply (f_equal (option_map ci_ident)) in H. lazy in H. discriminate.
Qed.

(* D13b: first read = the expired certificate 3, second read = the fresh certificate 1 (both for
   key 10): with the expiry check ON the reload succeeds and the EXPIRED certificate is served. *)
Lemma C18_refuted_expired_served :
  exists st0 rd na,
    w_new_legacy (stable 1 10) w_clock = inl st0 /\
    snd (w_reload_legacy st0 rd w_clock) = CrOk /\
    l_cert (cr_active (fst (w_reload_legacy st0 rd w_clock))) = 3%N /\
    w_parse_info 3%N = Some (103%N, na) /\ na < cr_wall_chk w_clock.
Proof.
  eexists. exists (Build_cr_reads (Some 3%N) (Some 10%N) (Some 1%N)). eexists.
  split; [vm_compute; reflexivity|].
  split; [vm_compute; reflexivity|].
  split; [vm_compute; reflexivity|].
  split; [vm_compute; reflexivity|]. vm_compute; reflexivity.
Qed.

(* D14: a stable disk holding a certificate that expired one hour ago: accepted with the check ON *)
Lemma C18_refuted_recently_expired :
  exists st0 na,
    w_new_legacy (stable 1 10) w_clock = inl st0 /\
    snd (w_reload_legacy st0 (stable 4 10) w_clock) = CrOk /\
    l_cert (cr_active (fst (w_reload_legacy st0 (stable 4 10) w_clock))) = 4%N /\
    w_parse_info 4%N = Some (104%N, na) /\ na < cr_wall_chk w_clock.
Proof.
  eexists. eexists.
  split; [vm_compute; reflexivity|].
  split; [vm_compute; reflexivity|].
  split; [vm_compute; reflexivity|].
  split; [vm_compute; reflexivity|]. vm_compute; reflexivity.
Qed.

(* the whole-day test is blind for exactly the first 24 hours after not_after *)
Lemma legacy_expiry_blind_window : forall na now,
  na < now -> (cr_is_expired_days (cr_days_until na now) = false <-> now - na < day_ns).
Proof.
  intros na now H. unfold cr_is_expired_days, cr_days_until, day_ns, cr_ns_per_sec.
  replace cert_expired_below_days with 0 by reflexivity.
  replace cert_secs_per_day with 86400 by reflexivity.
  destruct (Z.leb_spec now na) as [Hle|Hgt]; [lia|].
  rewrite Z.ltb_ge.
  rewrite Z.div_div by lia.
  split; intro Hx.
  - assert (Hq : (now - na) / (1000000000 * 86400) <= 0) by lia.
    destruct (Z_lt_ge_dec (now - na) (86400 * 1000000000)) as [Hlt|Hge]; [exact Hlt|].
    exfalso. assert (1 <= (now - na) / (1000000000 * 86400)).
    { apply Z.div_le_lower_bound; lia. } lia.
  - rewrite Z.div_small by lia. lia.
Qed.

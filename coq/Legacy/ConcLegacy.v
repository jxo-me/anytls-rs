(* ConcLegacy.v -- the write / close path of the PINNED session.rs (before the fix: commits 37cfea8,
   4bc6bc8, 0e2b7fc, 887136c), as a small interleaving machine of its own, with machine-checked witnesses
   that the pinned code violated C11, C05 (ordering) and C09. Not used by the correspondence check (the
   code it describes no longer exists); the witnesses are replayed against the implementation by the
   corpus schedules of C09 / C11, which fail again if the corresponding fix is reverted.

   Pinned write_frame:   (no closed check)  buffering ? append : { take buffer (lock released) ;
                         pkt := counter++ (outside the writer lock) ; lock writer ; write ; on error:
                         handle_io_error -> close() WHILE STILL HOLDING the writer guard }
   Pinned close():       swap flag ; drain tables ; lock writer ; shutdown.
   Pinned packet index:  the first session packet is number 0 (the preamble's line). *)
From Coq Require Import List NArith Bool.
From AnyTLS Require Import Bytes Cmd Generated Frame.
Import ListNotations.
Open Scope N_scope.

Inductive lpc :=
| LIdle
| LTaken (held : list frame) (idx : N)      (* buffer drained and packet numbered; writer lock NOT yet held *)
| LLocked (held : list frame) (idx : N)     (* writer lock held, about to write *)
| LClosing                                   (* inside close(): flag set, about to lock the writer *)
| LDone.

Record lstate := {
  l_buffering : bool; l_pending : list frame; l_wr : option nat; l_pkt : N;
  l_wire : list (N * list frame); l_closed : bool; l_shut : bool; l_failing : bool;
  l_pcs : nat -> lpc; l_todo : nat -> list frame   (* frames each task still has to write *)
}.

Definition lupd {A} (f : nat -> A) (t : nat) (v : A) : nat -> A := fun t' => if Nat.eqb t' t then v else f t'.

Definition lset (s : lstate) (t : nat) (p : lpc) : lstate :=
  {| l_buffering := l_buffering s; l_pending := l_pending s; l_wr := l_wr s; l_pkt := l_pkt s;
     l_wire := l_wire s; l_closed := l_closed s; l_shut := l_shut s; l_failing := l_failing s;
     l_pcs := lupd (l_pcs s) t p; l_todo := l_todo s |}.

Definition lstep (s : lstate) (t : nat) : option lstate :=
  match l_pcs s t with
  | LIdle =>
      match l_todo s t with
      | [] => None
      | f :: rest =>
          if l_buffering s then
            Some {| l_buffering := true; l_pending := l_pending s ++ [f]; l_wr := l_wr s; l_pkt := l_pkt s;
                    l_wire := l_wire s; l_closed := l_closed s; l_shut := l_shut s; l_failing := l_failing s;
                    l_pcs := l_pcs s; l_todo := lupd (l_todo s) t rest |}
          else
            (* take the buffer, release its lock, number the packet -- all before the writer lock *)
            Some {| l_buffering := false; l_pending := []; l_wr := l_wr s; l_pkt := l_pkt s + 1;
                    l_wire := l_wire s; l_closed := l_closed s; l_shut := l_shut s; l_failing := l_failing s;
                    l_pcs := lupd (l_pcs s) t (LTaken (l_pending s ++ [f]) (l_pkt s));
                    l_todo := lupd (l_todo s) t rest |}
      end
  | LTaken held idx =>
      match l_wr s with
      | None => Some {| l_buffering := l_buffering s; l_pending := l_pending s; l_wr := Some t; l_pkt := l_pkt s;
                        l_wire := l_wire s; l_closed := l_closed s; l_shut := l_shut s; l_failing := l_failing s;
                        l_pcs := lupd (l_pcs s) t (LLocked held idx); l_todo := l_todo s |}
      | Some _ => None
      end
  | LLocked held idx =>
      if l_failing s
      then (* handle_io_error -> close(): flag set, tables drained, guard still held *)
        Some {| l_buffering := l_buffering s; l_pending := l_pending s; l_wr := l_wr s; l_pkt := l_pkt s;
                l_wire := l_wire s; l_closed := true; l_shut := l_shut s; l_failing := true;
                l_pcs := lupd (l_pcs s) t LClosing; l_todo := l_todo s |}
      else
        Some {| l_buffering := l_buffering s; l_pending := l_pending s; l_wr := None; l_pkt := l_pkt s;
                l_wire := l_wire s ++ [(idx, held)]; l_closed := l_closed s; l_shut := l_shut s;
                l_failing := false; l_pcs := lupd (l_pcs s) t LIdle; l_todo := l_todo s |}
  | LClosing =>
      match l_wr s with
      | None => Some {| l_buffering := l_buffering s; l_pending := l_pending s; l_wr := None; l_pkt := l_pkt s;
                        l_wire := l_wire s; l_closed := true; l_shut := true; l_failing := l_failing s;
                        l_pcs := lupd (l_pcs s) t LDone; l_todo := l_todo s |}
      | Some _ => None        (* writer.lock().await : blocked, also when the holder is this very task *)
      end
  | LDone => None
  end.

Definition lrun (s : lstate) (sched : list nat) : lstate :=
  fold_left (fun s t => match lstep s t with Some s' => s' | None => s end) sched s.

Definition linit (buf : bool) (pend : list frame) (todo : list (list frame)) (failing : bool) : lstate :=
  {| l_buffering := buf; l_pending := pend; l_wr := None; l_pkt := 0; l_wire := []; l_closed := false;
     l_shut := false; l_failing := failing; l_pcs := fun _ => LIdle; l_todo := fun t => nth t todo [] |}.

Definition settings : frame := {| fcmd := Settings; fsid := 0; fdata := [] |}.
Definition syn (i : N) : frame := {| fcmd := Syn; fsid := i; fdata := [] |}.
Definition psh (i : N) : frame := {| fcmd := Push; fsid := i; fdata := [i] |}.

(* C11: task 1 drains [Settings; SYN 1] together with its PSH 1 and is pre-empted before taking the writer
   lock; task 2 (buffer now empty) writes SYN 2 first: SYN 2 precedes the Settings frame on the wire *)
Lemma C11_refuted_settings_not_first :
  exists sched,
    let s := lrun (linit false [settings; syn 1] [[]; [psh 1]; [syn 2]] false) sched in
    concat (map snd (l_wire s)) = [syn 2; settings; syn 1; psh 1].
Proof. exists [1; 2; 2; 2; 1; 1]%nat. vm_compute. reflexivity. Qed.

(* C11: a stream's PSH overtakes its own SYN: task 1 holds [SYN 1] (taken with a control frame) while task 2,
   which inherited stream 1, writes PSH 1 directly *)
Lemma C11_refuted_psh_before_syn :
  exists sched,
    let s := lrun (linit false [syn 1] [[]; [settings]; [psh 1]] false) sched in
    concat (map snd (l_wire s)) = [psh 1; syn 1; settings].
Proof. exists [1; 2; 2; 2; 1; 1]%nat. vm_compute. reflexivity. Qed.

(* C05 (ordering + numbering): the burst that reaches the transport first was shaped with packet number 1,
   the second with number 0; and the very first session packet is number 0 (the preamble's line) *)
Lemma C05_refuted_order :
  exists sched,
    let s := lrun (linit false [] [[]; [psh 1]; [psh 2]] false) sched in
    map fst (l_wire s) = [1; 0].
Proof. exists [1; 2; 2; 2; 1; 1]%nat. vm_compute. reflexivity. Qed.

Lemma C05_refuted_first_packet_is_line_0 :
  map fst (l_wire (lrun (linit false [] [[]; [psh 1]] false) [1; 1; 1]%nat)) = [0].
Proof. vm_compute. reflexivity. Qed.

(* C09: a failing transport write never returns: the task ends up inside close() waiting for the writer lock
   it holds itself; no schedule can move it (or anybody queued behind it) any further *)
Lemma C09_refuted_self_deadlock :
  let s := lrun (linit false [] [[]; [psh 1]; [psh 2]] true) [1; 1; 1; 2]%nat in
  l_pcs s 1%nat = LClosing /\ l_wr s = Some 1%nat /\ l_shut s = false /\
  lstep s 1%nat = None /\ lstep s 2%nat = None.
Proof. vm_compute. repeat split; reflexivity. Qed.

Lemma C09_refuted_stuck_forever : forall sched,
  let s0 := lrun (linit false [] [[]; [psh 1]; [psh 2]] true) [1; 1; 1; 2]%nat in
  l_shut (lrun s0 (map (fun b : bool => if b then 1%nat else 2%nat) sched)) = false.
Proof.
  intros sched. cbv zeta.
  set (s0 := lrun (linit false [] [[]; [psh 1]; [psh 2]] true) [1; 1; 1; 2]%nat).
  assert (forall l, lrun s0 (map (fun b : bool => if b then 1%nat else 2%nat) l) = s0) as Hfix.
  { induction l as [|b l IH]; [reflexivity|]. cbn [map]. unfold lrun in *. cbn [fold_left].
    assert (lstep s0 (if b then 1%nat else 2%nat) = None) as E by (destruct b; vm_compute; reflexivity).
    rewrite E. exact IH. }
  rewrite Hfix. vm_compute. reflexivity.
Qed.

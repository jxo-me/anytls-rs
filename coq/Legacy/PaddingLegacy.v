(* PaddingLegacy.v -- the pinned (pre-fix) behaviour of the padding code where it differs from Model/Padding.v,
   with machine-checked witnesses that it violates C04 / C05 / C19 (DESIGN section 9: D3, D4, D12).
   The witnesses are also stored in corpus/C04, corpus/C05, corpus/C19 and replayed on the implementation. *)
From Coq Require Import List NArith ZArith Lia Bool.
From AnyTLS Require Import Bytes Cmd Generated Frame Text Padding BytesFacts FrameProofs PaddingProofs PaddingProcProofs.
Import ListNotations.
Open Scope N_scope.

(* D3: generate_record_payload_sizes without the bound on sizes *)
Definition line_entries_unbounded : scheme -> N -> list entry := line_entries_gen None.
Definition write_packet_d3 := write_packet_gen pkt_index line_entries_unbounded.

(* D4: packets numbered from 0 (the counter value before the increment selects the line) *)
Definition write_packet_d4 := write_packet_gen (fun c => u32_of c) line_entries.

Definition scheme_of (raw : bytes) : scheme :=
  match factory_new raw with Some s => s | None => {| sc_map := []; sc_raw := raw; sc_stop := 0 |} end.

Definition writes_of (r : shaped) : list bytes := match r with Writes ws => ws | Crash => [] end.

(* "stop=3\n1=70000-70000" *)
Definition scheme_70000 : bytes := [115;116;111;112;61;51;10;49;61;55;48;48;48;48;45;55;48;48;48;48].
(* "stop=3\n1=2147483648-2147483648" *)
Definition scheme_2g : bytes := [115;116;111;112;61;51;10;49;61;50;49;52;55;52;56;51;54;52;56;45;50;49;52;55;52;56;51;54;52;56].
(* "stop=3\n1=4294967295-4294967295,10-10" *)
Definition scheme_alias : bytes := [115;116;111;112;61;51;10;49;61;52;50;57;52;57;54;55;50;57;53;45;52;50;57;52;57;54;55;50;57;53;44;49;48;45;49;48].

Definition ten_byte_frame : bytes := [2; 0;0;0;1; 0;10; 1;2;3;4;5;6;7;8;9;10].

Lemma zeros_add a b : zeros (a + b) = zeros a ++ zeros b.
Proof. unfold zeros. rewrite N2Nat.inj_add. apply repeat_app. Qed.

(* a run of zero bytes decodes into empty padding frames; fewer bytes than a header are left over *)
Lemma decode_zeros k : forall r, r < 7 -> snd (decode_all_raw (zeros (7 * k + r))) = zeros r.
Proof.
  induction k as [|k IH] using N.peano_ind; intros r Hr.
  - rewrite N.mul_0_r, N.add_0_l, decode_all_raw_unfold.
    destruct (decode1_raw (zeros r)) as [[f rest]|] eqn:E; [|reflexivity].
    apply decode1_raw_consumes in E. rewrite lenN_zeros in E. lia.
  - replace (7 * N.succ k + r) with (7 + (7 * k + r)) by lia. rewrite zeros_add.
    change (zeros 7) with (encode_raw (waste_r 0)).
    rewrite decode_all_raw_unfold, decode1_raw_encode_raw by (apply waste_r_wf; unfold pad_ok; lia).
    specialize (IH r Hr). destruct (decode_all_raw (zeros (7 * k + r))). exact IH.
Qed.

(* a size above 65535: the padding frame's length field is size mod 65536 while all the zeros are written:
   the wire no longer parses as complete frames *)
Lemma C04_refuted_wire :
  exists sc p, factory_new scheme_70000 = Some sc /\
    let ws := writes_of (fst (write_packet_d3 true sc 0 [] p)) in
    lenN (concat ws) = 70000 /\ snd (decode_all (concat ws)) <> [].
Proof.
  exists (scheme_of scheme_70000), ten_byte_frame. split; [reflexivity|]. cbv zeta.
  assert (E : writes_of (fst (write_packet_d3 true (scheme_of scheme_70000) 0 [] ten_byte_frame))
              = [ten_byte_frame ++ waste_bytes 4440 69976]).
  { lazy -[zeros waste_bytes]. reflexivity. }
  rewrite E. cbn [concat]. rewrite app_nil_r. split.
  - unfold waste_bytes. rewrite lenN_app, lenN_cons, !lenN_app, lenN_zeros. reflexivity.
  - (* the header announces 4440 bytes: the other 65536 zeros are read as empty frames, and 2 bytes stay *)
    assert (waste_bytes 4440 69976 = encode_raw (waste_r 4440) ++ zeros 65536) as ->.
    { rewrite <- waste_encode. unfold waste_bytes, waste. change 69976 with (4440 + 65536).
      rewrite zeros_add. cbn [app]. rewrite <- !app_assoc. reflexivity. }
    change ten_byte_frame with (encode_raw {| rcmd := 2; rsid := 1; rdata := [1;2;3;4;5;6;7;8;9;10] |}).
    unfold decode_all.
    rewrite decode_all_raw_unfold, decode1_raw_encode_raw by (repeat split; [repeat constructor | vm_compute; discriminate]).
    rewrite decode_all_raw_unfold, decode1_raw_encode_raw by (apply waste_r_wf; unfold pad_ok; lia).
    pose proof (decode_zeros 9362 2 ltac:(lia)) as Z. change (7 * 9362 + 2) with 65536 in Z.
    destruct (decode_all_raw (zeros 65536)) as [fs r]. cbn [snd] in *. subst r. discriminate.
Qed.

(* a size >= 2^31 wraps to a negative i32, sign-extends to a huge usize: capacity overflow *)
Lemma C04_refuted_crash :
  exists sc p, factory_new scheme_2g = Some sc /\ fst (write_packet_d3 true sc 0 [] p) = Crash.
Proof. exists (scheme_of scheme_2g), ten_byte_frame. split; vm_compute; reflexivity. Qed.

(* 4294967295 wraps to -1 = CHECK_MARK: a range entry turns into a check mark *)
Lemma C04_refuted_alias :
  exists sc, factory_new scheme_alias = Some sc /\
    line_entries_unbounded sc 1 = [ERange 4294967295 4294967295; ERange 10 10] /\
    sizes (line_entries_unbounded sc 1) [] = [check_mark; 10%Z].
Proof. exists (scheme_of scheme_alias). repeat split; vm_compute; reflexivity. Qed.

(* the repaired generator ignores all three *)
Lemma D3_repaired :
  line_entries (scheme_of scheme_70000) 1 = [] /\ line_entries (scheme_of scheme_2g) 1 = [] /\
  line_entries (scheme_of scheme_alias) 1 = [ERange 10 10].
Proof. repeat split; vm_compute; reflexivity. Qed.

(* D4: with the old numbering the first session packet (100 payload bytes, built-in scheme) is shaped by
   line 0 (30-30) instead of line 1 (100-400): writes of 30 and 70 bytes, not accepted by line 1 *)
Lemma C05_refuted_index :
  let p := repeat 7 100 in
  let ws := writes_of (fst (write_packet_d4 true builtin_scheme 0 [] p)) in
  map (@length N) ws = [30; 70]%nat /\ accepts (line_entries builtin_scheme 1) p ws = false /\
  (forall d, (100 <= d <= 400)%Z ->
     accepts (line_entries builtin_scheme 1) p (writes_of (fst (write_packet true builtin_scheme 0 [d] p))) = true).
Proof.
  cbv zeta. split; [vm_compute; reflexivity|]. split; [vm_compute; reflexivity|].
  intros d Hd. set (p := repeat 7 100).
  assert (line_entries builtin_scheme (pkt_index 0) = [ERange 100 400]) as El by (vm_compute; reflexivity).
  assert (draws_ok (line_entries builtin_scheme (pkt_index 0)) [d]) as Hok.
  { rewrite El. cbn [draws_ok]. destruct (Z.eqb_spec 100 400); [discriminate|]. split; [lia | exact I]. }
  destruct (write_packet_wire true builtin_scheme 0 [d] p Hok) as (ws & ns & E & _).
  rewrite E. cbn [writes_of].
  assert (pkt_index 0 = 1) as Ei by reflexivity. rewrite <- Ei.
  apply (write_packet_accepted builtin_scheme 0 [d] p ws Hok E). vm_compute. reflexivity.
Qed.

(* D12: the default scheme as a write-once cell, and a client that hands its construction-time scheme to
   every new session *)
Record lproc := { l_cell : option scheme }.
Definition lproc_default (p : lproc) : scheme * lproc :=
  match l_cell p with
  | Some s => (s, p)
  | None => (builtin_scheme, {| l_cell := Some builtin_scheme |})
  end.
Definition lproc_update (p : lproc) (raw : bytes) : option lproc :=
  match factory_new raw with
  | None => None
  | Some f => match l_cell p with None => Some {| l_cell := Some f |} | Some _ => None end
  end.
Definition on_update_legacy (p : lproc) (s : csess) (raw : bytes) : lproc * csess :=
  if cs_client s && negb (is_nil raw) then
    match lproc_update p raw with
    | Some p' => let '(d, p'') := lproc_default p' in (p'', sess_set_scheme s d)
    | None => (p, s)
    end
  else (p, s).
Definition session_padding_legacy (p : lproc) (client_scheme : scheme) : scheme := client_scheme.

(* "stop=2\n1=50-50" *)
Definition scheme_b : bytes := [115;116;111;112;61;50;10;49;61;53;48;45;53;48].

(* once the built-in default has been materialised (the client binary does it at start-up), a pushed scheme
   is rejected: the session keeps the old scheme and so does the process *)
Lemma C19_refuted_push_ignored :
  exists f, factory_new scheme_b = Some f /\
    let p1 := snd (lproc_default {| l_cell := None |}) in
    let s := sess_new true builtin_scheme in
    on_update_legacy p1 s scheme_b = (p1, s) /\ cs_scheme s <> f.
Proof.
  exists (scheme_of scheme_b). split; [reflexivity|]. cbv zeta. split; [vm_compute; reflexivity|].
  intros H. apply (f_equal sc_stop) in H. vm_compute in H. discriminate.
Qed.

(* and even when the first push is adopted, the next session of the client announces the old scheme again *)
Lemma C19_refuted_next_session :
  exists f cl, factory_new scheme_b = Some f /\ sc_raw cl <> sc_raw f /\
    let '(p1, s1) := on_update_legacy {| l_cell := None |} (sess_new true cl) scheme_b in
    cs_scheme s1 = f /\ session_padding_legacy p1 cl = cl /\
    (* a second push in the same process is then rejected *)
    on_update_legacy p1 (sess_new true cl) scheme_b = (p1, sess_new true cl).
Proof.
  exists (scheme_of scheme_b), (scheme_of scheme_70000). split; [reflexivity|].
  split; [vm_compute; discriminate|]. vm_compute. repeat split; reflexivity.
Qed.

(* the repaired process adopts the same pushes *)
Lemma D12_repaired :
  let f := scheme_of scheme_b in
  let p1 := snd (proc_default proc_init) in
  on_update p1 (sess_new true builtin_scheme) scheme_b = (proc_with p1 f, sess_set_scheme (sess_new true builtin_scheme) f) /\
  session_padding (proc_with p1 f) builtin_scheme = f.
Proof. cbv zeta. split; [apply on_update_adopts; reflexivity | reflexivity]. Qed.

(* HttpLegacy.v -- the PINNED (pre-fix, /repo @ 1e92959) behaviour of src/client/http_proxy.rs where it differs
   from Model/Http.v, with machine-checked witnesses that it violates C17 (`C17_refuted_*`).
   Each witness is replayed on the implementation from corpus/C17/ on every run. *)
From Coq Require Import List NArith Bool.
From AnyTLS Require Import Bytes Generated HttpText Http.
Import ListNotations.
Open Scope N_scope.

(* pinned split_host_port: an empty port (`host:`) falls through with the colon kept in the host *)
Definition split_host_port_cur (value : bytes) (default : N) : bytes * N :=
  match h_rfind_byte c_colon value with
  | Some idx =>
      if h_contains_byte c_colon (takeN idx value) && negb (h_contains_byte c_rbr value)
      then (value, default)
      else
        match h_parse_u16 (dropN (idx + 1) value) with
        | Some p => (clean_host (takeN idx value), p)
        | None => (clean_host value, default)
        end
  | None => (clean_host value, default)
  end.

(* pinned Host lookup: only the spellings `Host:` and `host:` *)
Fixpoint find_host_header_cur (hs : list bytes) : option bytes :=
  match hs with
  | [] => None
  | l :: r =>
      match h_strip_prefix [72; 111; 115; 116; 58] l with
      | Some rest => Some (h_trim rest)
      | None =>
          match h_strip_prefix [104; 111; 115; 116; 58] l with
          | Some rest => Some (h_trim rest)
          | None => find_host_header_cur r
          end
      end
  end.

(* pinned determine_target: case-sensitive scheme test, authority ends only at '/' *)
Definition determine_target_cur (method target : bytes) (headers : list bytes)
  : hres (bytes * N * bytes * bool) :=
  if h_eq_ignore_case method k_connect then
    let '(h, p) := split_host_port_cur target 443 in HOk (h, p, [], true)
  else
    let host_header := find_host_header_cur headers in
    let is_http := h_starts_with k_http target in
    let is_https := h_starts_with k_https target in
    let '(host, port, path) :=
      if is_http || is_https then
        let without_scheme :=
          match h_find k_scheme_sep target with
          | Some pos => dropN (pos + 3) target
          | None => target
          end in
        let '(host, path) :=
          match h_find_if (fun c => c =? c_slash) without_scheme with
          | Some pos => (takeN pos without_scheme, dropN pos without_scheme)
          | None => (without_scheme, [c_slash])
          end in
        (host, (if is_https then 443 else 80), path)
      else
        match host_header with
        | Some h => (h, 80, target)
        | None => ([], 80, target)
        end in
    if h_nil host then HErr
    else
      let '(host_only, port_resolved) := split_host_port_cur host port in
      let path' :=
        if h_starts_with [c_slash] path || h_starts_with [c_star] path then path else c_slash :: path in
      HOk (host_only, port_resolved, path', false).

Definition parse_http_request_cur (header body : bytes) : hres hparsed :=
  match h_split_crlf header with
  | [] => HErr
  | request_line :: lines =>
      match h_split_whitespace request_line with
      | method :: target :: rest =>
          let version := match rest with v :: _ => v | [] => k_http11 end in
          let header_lines := filter (fun l => negb (h_nil l)) lines in
          match determine_target_cur method target header_lines with
          | HErr => HErr
          | HOk (host, port, path, is_connect) =>
              HOk {| hp_method := method; hp_version := version; hp_host := host; hp_port := port;
                    hp_path := path; hp_connect := is_connect; hp_headers := header_lines; hp_body := body |}
          end
      | _ => HErr
      end
  end.

(* pinned build_forward_request: the host is printed as it is, IPv6 literals lose their brackets *)
Definition host_line_out_cur (host : bytes) (port : N) : bytes :=
  k_host_sp ++ (if (port =? 80) || (port =? 443) then host else host ++ c_colon :: h_dec port) ++ k_crlf.

Definition build_forward_request_cur (r : hparsed) : bytes :=
  let hv := host_line_out_cur (hp_host r) (hp_port r) in
  (hp_method r ++ c_sp :: (if h_nil (hp_path r) then [c_slash] else hp_path r) ++ c_sp :: hp_version r ++ k_crlf)
  ++ concat (map (rewrite_line hv) (hp_headers r))
  ++ (if existsb is_host_line (hp_headers r) then [] else hv)
  ++ k_crlf.

(* pinned read loop: the size test precedes the terminator search *)
Fixpoint read_header_cur (buf : bytes) (chunks : list bytes) (eof : bool) : hrh :=
  match chunks with
  | [] => if eof then RhClosed else RhPending buf
  | c :: cs =>
      if h_nil c then RhClosed
      else
        let buf' := buf ++ c in
        if http_max_header <? lenN buf' then RhTooLarge
        else match find_header_end buf' with
             | Some e => RhOk (takeN e buf') (dropN e buf') cs
             | None => read_header_cur buf' cs eof
             end
  end.

(* pinned handler: for CONNECT the bytes that arrived with the header are never sent *)
Definition handle_cur (chunks : list bytes) (eof : bool) (open_ok : bool) : list hev :=
  match read_header_cur [] chunks eof with
  | RhOk h rest remaining =>
      match parse_http_request_cur h rest with
      | HErr => []
      | HOk r =>
          EvOpen (hp_host r) (hp_port r) ::
          (if open_ok then
             (if hp_connect r then [EvReply 200]
              else [EvSend (build_forward_request_cur r)] ++ opt_send (hp_body r))
             ++ fwd_loop remaining
           else [EvReply 502])
      end
  | _ => []
  end.

Definition forward_of_cur (r : hreq) : hres (bytes * N * bool * bytes) :=
  match parse_http_request_cur (render_head r) (r_body r) with
  | HErr => HErr
  | HOk p => HOk (hp_host p, hp_port p, hp_connect p, if hp_connect p then [] else build_forward_request_cur p)
  end.

From Coq Require Import ZArith Lia.
From AnyTLS Require Import BytesFacts HttpTextFacts HttpReadProofs.

Lemma read_header_cur_cons buf c cs eof :
  c <> [] -> find_header_end (buf ++ c) = None -> lenN (buf ++ c) <= http_max_header ->
  read_header_cur buf (c :: cs) eof = read_header_cur (buf ++ c) cs eof.
Proof.
  intros Hc Hf Hl. apply h_nil_false_iff in Hc. apply N.ltb_ge in Hl. cbn [read_header_cur]. now rewrite Hc, Hl, Hf.
Qed.

(* reads of n bytes: the verdict of the legacy loop is that of the read that completes the terminator, the
   (k+1)-th, so it depends on where that read ends and not on where the header ends *)
Lemma read_header_cur_rechunk buf n s k e eof :
  0 < n -> find_header_end (buf ++ s) = Some e ->
  lenN buf + k * n < e -> e <= lenN buf + k * n + n -> k * n + n < lenN s -> lenN buf + k * n <= http_max_header ->
  (lenN buf + k * n + n <= http_max_header ->
   exists rest cs, read_header_cur buf (rechunk n s) eof = RhOk (takeN e (buf ++ s)) rest cs) /\
  (http_max_header < lenN buf + k * n + n -> read_header_cur buf (rechunk n s) eof = RhTooLarge).
Proof.
  intros Hn. revert buf s. induction k as [|k IH] using N.peano_ind; intros buf s He L1 L2 Ls Lm.
  (* in both cases s is longer than n, so the first read is takeN n s, of length n *)
  all: assert (Hs : s <> []) by (rewrite <- lenN_zero_nil; lia).
  all: assert (Lc : lenN (takeN n s) = n) by (apply lenN_takeN; lia).
  all: assert (Hc : takeN n s <> []) by (rewrite <- lenN_zero_nil; lia).
  all: rewrite (rechunk_eq n s Hn Hs); (destruct (N.leb_spec (lenN s) n); [lia|]).
  all: rewrite <- (takeN_dropN n s), app_assoc in He.
  - (* the first read completes the terminator *)
    rewrite N.mul_0_l, N.add_0_r in *. apply h_nil_false_iff in Hc. cbn [read_header_cur]. rewrite Hc, lenN_app, Lc.
    rewrite (fhe_app_inv _ _ _ He) by (rewrite lenN_app; lia).
    rewrite <- (takeN_app_le e _ (dropN n s)), <- app_assoc, takeN_dropN by (rewrite lenN_app; lia).
    split; intros L; [apply N.ltb_ge in L|apply N.ltb_lt in L]; rewrite L; [now eexists _, _|reflexivity].
  - (* the first read is taken into the buffer *)
    rewrite N.mul_succ_l in *. rewrite read_header_cur_cons.
    + replace (buf ++ s) with ((buf ++ takeN n s) ++ dropN n s) by (now rewrite <- app_assoc, takeN_dropN).
      replace (lenN buf + (k * n + n) + n) with (lenN (buf ++ takeN n s) + k * n + n) by (rewrite lenN_app, Lc; lia).
      apply IH; rewrite ?lenN_app, ?Lc, ?lenN_dropN; [exact He|lia..].
    + exact Hc.
    + apply (fhe_none_before _ _ _ He). rewrite lenN_app. lia.
    + rewrite lenN_app. lia.
Qed.

From Coq Require Import String.

Definition lg_req (m : string) (t : rtarget) (hh : option host_hdr) (body : string) : hreq :=
  {| r_method := bs m; r_target := t; r_version := bs "HTTP/1.1"; r_before := []; r_host := hh;
     r_after := [bs "X: y"]; r_body := bs body |}.
Definition lg_host (name : string) (h : hostname) (p : option (list N)) : option host_hdr :=
  Some {| hh_name := bs name; hh_pre := [32]; hh_auth := {| au_host := h; au_port := p |}; hh_post := [] |}.

(* (1) `HOST:` spelling: a well-formed origin-form request is rejected ("Host header missing") *)
Lemma C17_refuted_1_host_spelling :
  exists r, wf_req r = true /\ parse_http_request_cur (render_head r) (r_body r) = HErr /\
            exists p, parse_http_request (render_head r) (r_body r) = HOk p.
Proof.
  exists (lg_req "GET" (TOrigin (bs "/a")) (lg_host "HOST" (HName (bs "example.com")) None) "").
  vm_compute. repeat split. eexists. reflexivity.
Qed.

(* (2) IPv6 literal: the rewritten Host header loses the brackets (`Host: ::1:8080`) *)
Lemma C17_refuted_2_ipv6_brackets :
  exists r p, wf_req r = true /\ is_connect_req r = false /\
              parse_http_request_cur (render_head r) (r_body r) = HOk p /\
              bytes_eqb (build_forward_request_cur p) (render_head (origin_form r)) = false /\
              h_find (bs "Host: ::1:8080") (build_forward_request_cur p) <> None.
Proof.
  eexists (lg_req "GET" (TOrigin (bs "/a")) (lg_host "Host" (HV6 (bs "::1")) (Some [8; 0; 8; 0])) ""), _.
  split; [vm_compute; reflexivity|]. split; [reflexivity|]. split; [vm_compute; reflexivity|].
  split; [vm_compute; reflexivity|]. vm_compute. discriminate.
Qed.

(* (3) query without path: `http://example.com?q=1` opens the tunnel to host "example.com?q=1" *)
Lemma C17_refuted_3_query_without_path :
  exists r p, wf_req r = true /\ parse_http_request_cur (render_head r) (r_body r) = HOk p /\
              spec_target r = Some (bs "example.com", 80) /\ hp_host p = bs "example.com?q=1" /\ hp_path p = bs "/".
Proof.
  eexists (lg_req "GET" (TAbsolute false (bs "http") {| au_host := HName (bs "example.com"); au_port := None |} (bs "?q=1"))
                  None ""), _.
  split; [vm_compute; reflexivity|]. split; [vm_compute; reflexivity|]. repeat split.
Qed.

(* (4) upper-case scheme: `HTTP://example.com/a` is treated as an origin-form path and routed by the Host header *)
Lemma C17_refuted_4_scheme_case :
  exists r p, wf_req r = true /\ parse_http_request_cur (render_head r) (r_body r) = HOk p /\
              spec_target r = Some (bs "example.com", 80) /\ hp_host p = bs "other" /\
              hp_path p = bs "/HTTP://example.com/a".
Proof.
  eexists (lg_req "GET" (TAbsolute false (bs "HTTP") {| au_host := HName (bs "example.com"); au_port := None |} (bs "/a"))
                  (lg_host "Host" (HName (bs "other")) None) ""), _.
  split; [vm_compute; reflexivity|]. split; [vm_compute; reflexivity|]. repeat split.
Qed.

(* (5) bytes that arrive together with a CONNECT header are never sent into the tunnel *)
Lemma C17_refuted_5_connect_early_bytes :
  exists r, wf_req r = true /\ is_connect_req r = true /\ r_body r <> [] /\
            handle_cur [render r] false true = [EvOpen (bs "example.com") 443; EvReply 200] /\
            sent_bytes (handle [render r] false true) = r_body r.
Proof.
  exists (lg_req "CONNECT" (TAuthority {| au_host := HName (bs "example.com"); au_port := Some [4; 4; 3] |}) None "EARLY").
  vm_compute. repeat split. discriminate.
Qed.

(* (6) the same bytes (a 65530-byte header block followed by 1000 body bytes) are accepted when the reads are
   aligned to 1024 and rejected when a first read of 100 bytes mis-aligns them *)
Definition lg_big : bytes :=
  bs "GET / HTTP/1.1" ++ [13; 10] ++ bs "Host: a" ++ [13; 10] ++ bs "X: " ++ repeat 112 (N.to_nat 65498)
  ++ [13; 10; 13; 10] ++ repeat 98 (N.to_nat 1000).

Definition lg_ok_with (r : hrh) (h : bytes) : bool :=
  match r with RhOk h' _ _ => bytes_eqb h' h | _ => false end.
Definition lg_too_large (r : hrh) : bool := match r with RhTooLarge => true | _ => false end.

Lemma lg_big_len : lenN lg_big = 66530.
Proof. unfold lg_big. rewrite !lenN_app, !lenN_repeat. reflexivity. Qed.

Lemma lg_big_end : find_header_end lg_big = Some 65530.
Proof.
  unfold find_header_end, lg_big. do 4 rewrite h_find_skip by reflexivity.
  rewrite (app_assoc (bs "X: ")), <- (app_comm_cons [10; 13; 10]), (h_find_first 13 [10; 13; 10]).
  - rewrite lenN_app, lenN_repeat. reflexivity.
  - rewrite nof_app, nof_repeat by reflexivity. reflexivity.
Qed.

Lemma C17_refuted_6_limit_depends_on_chunking :
  let aligned := rechunk 1024 lg_big in
  let misaligned := takeN 100 lg_big :: rechunk 1024 (dropN 100 lg_big) in
  (bytes_eqb (List.concat aligned) lg_big && bytes_eqb (List.concat misaligned) lg_big
   && match find_header_end lg_big with Some e => e =? 65530 | None => false end
   && lg_ok_with (read_header_cur [] aligned false) (takeN 65530 lg_big)
   && lg_too_large (read_header_cur [] misaligned false)
   && lg_ok_with (read_header [] misaligned false) (takeN 65530 lg_big)) = true.
Proof.
  (* the terminator ends at 65530: the 64th read of 1024 completes it and ends at 65536, or, after a first read
     of 100, at 65636 *)
  cbv zeta. rewrite concat_rechunk, concat_cons, concat_rechunk, takeN_dropN, bytes_eqb_refl, lg_big_end.
  pose proof lg_big_len as Len.
  assert (L100 : lenN (takeN 100 lg_big) = 100) by (apply lenN_takeN; rewrite Len; discriminate).
  destruct (read_header_cur_rechunk [] 1024 lg_big 63 65530 false) as [H4 _];
    [reflexivity|exact lg_big_end|reflexivity|discriminate|now rewrite Len|discriminate|].
  destruct H4 as (r4 & c4 & ->); [discriminate|].
  pose proof (takeN_dropN 100 lg_big) as E100.
  rewrite read_header_cur_cons; cbn [app].
  - destruct (read_header_cur_rechunk (takeN 100 lg_big) 1024 (dropN 100 lg_big) 63 65530 false) as [_ H5];
      rewrite ?E100, ?L100, ?lenN_dropN, ?Len;
      [reflexivity|exact lg_big_end|reflexivity|discriminate|reflexivity|discriminate|].
    rewrite H5 by reflexivity.
    destruct (read_header_fits (takeN 100 lg_big :: rechunk 1024 (dropN 100 lg_big)) false 65530) as (k & r6 & -> & _).
    + constructor; [rewrite <- lenN_zero_nil, L100; discriminate|apply rechunk_nonempty].
    + rewrite concat_cons, concat_rechunk, E100. exact lg_big_end.
    + discriminate.
    + rewrite concat_cons, concat_rechunk, E100. cbn [lg_ok_with]. rewrite bytes_eqb_refl. reflexivity.
  - rewrite <- lenN_zero_nil, L100. discriminate.
  - apply (fhe_none_before _ (dropN 100 lg_big) 65530); [rewrite E100; exact lg_big_end|now rewrite L100].
  - rewrite L100. discriminate.
Qed.

(* (7) an empty port (`example.com:`) keeps the colon in the host name *)
Lemma C17_refuted_7_empty_port :
  exists r p, wf_req r = true /\ parse_http_request_cur (render_head r) (r_body r) = HOk p /\
              spec_target r = Some (bs "example.com", 80) /\ hp_host p = bs "example.com:".
Proof.
  eexists (lg_req "GET" (TAbsolute false (bs "http") {| au_host := HName (bs "example.com"); au_port := Some [] |} (bs "/a"))
                  None ""), _.
  split; [vm_compute; reflexivity|]. split; [vm_compute; reflexivity|]. repeat split.
Qed.

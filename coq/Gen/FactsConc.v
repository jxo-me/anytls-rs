(* FactsConc.v -- what Model/Conc.v takes from the code: the order of start_client's first steps and the client's
   numbering of packets and streams *)
From Coq Require Import NArith.
From AnyTLS Require Import Cmd Generated.

(* start_client enables buffering and queues the settings frame BEFORE it spawns the receive / forwarding /
   heartbeat tasks: this is what makes `init progs true [settings]` the right initial state of Model/Conc.v *)
Lemma start_settings_before_spawn_true : start_settings_before_spawn = true.
Proof. reflexivity. Qed.

Lemma client_numbering : client_pkt_start = 0%N /\ client_first_stream_id = 1%N /\ client_send_padding = true.
Proof. repeat split; reflexivity. Qed.

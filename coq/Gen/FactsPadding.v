(* FactsPadding.v -- side lemmas of the padding package (C04, C05, C19) *)
From Coq Require Import List NArith ZArith.
From AnyTLS Require Import Cmd Generated.
Import ListNotations.
Open Scope N_scope.

Lemma padding_size_bound_u16 : padding_size_bound = Some 65535%Z.
Proof. reflexivity. Qed.

Lemma pkt_index_offset_1 : pkt_index_offset = 1.
Proof. reflexivity. Qed.

Lemma client_pads_server_does_not : client_send_padding = true /\ server_send_padding = false.
Proof. split; reflexivity. Qed.

Lemma pkt_counters_start_at_0 : client_pkt_start = 0 /\ server_pkt_start = 0.
Proof. split; reflexivity. Qed.

Lemma settings_md5_keys_agree : client_settings_md5_key = server_settings_md5_key.
Proof. reflexivity. Qed.

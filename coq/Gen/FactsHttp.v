(* FactsHttp.v -- side lemmas of the http package (C17): limits of the header read loop, default ports, status
   codes of the proxy's own replies *)
From Coq Require Import List NArith.
From AnyTLS Require Import Cmd Generated.
Import ListNotations.
Open Scope N_scope.

Lemma http_header_limits :
  http_max_header = 65536 /\ http_terminator = [13; 10; 13; 10] /\ http_read_chunk = 1024.
Proof. repeat split; reflexivity. Qed.

Lemma http_default_ports :
  http_default_port_http = 80 /\ http_default_port_https = 443 /\ http_default_port_connect = 443.
Proof. repeat split; reflexivity. Qed.

Lemma http_reply_codes : http_reply_connect_ok = 200 /\ http_reply_open_failed = 502.
Proof. split; reflexivity. Qed.

(* FactsCore.v -- side lemmas about the regenerated wire-format constants (frame.rs, codec.rs, padding/mod.rs) *)
From Coq Require Import List NArith ZArith.
From AnyTLS Require Import Cmd Generated.
Import ListNotations.
Open Scope N_scope.

Lemma header_size_7 : header_size = 7.
Proof. reflexivity. Qed.

Lemma encode_max_payload_u16 : encode_max_payload = 65535.
Proof. reflexivity. Qed.

Lemma cmd_table_exact :
  cmd_table = [(0, Waste); (1, Syn); (2, Push); (3, Fin); (4, Settings); (5, Alert);
               (6, UpdatePaddingScheme); (7, SynAck); (8, HeartRequest);
               (9, HeartResponse); (10, ServerSettings)].
Proof. reflexivity. Qed.

Lemma cmd_disc_exact : cmd_disc = cmd_table.
Proof. reflexivity. Qed.

Lemma cmd_default_waste : cmd_default = Waste.
Proof. reflexivity. Qed.

Lemma check_mark_neg1 : check_mark = (-1)%Z.
Proof. reflexivity. Qed.

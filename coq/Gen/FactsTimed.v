(* FactsTimed.v -- side lemmas of the timed package (C12, C13, C14): shape of the pool, the client glue and the
   liveness rule *)
From Coq Require Import List NArith ZArith.
From AnyTLS Require Import Cmd Generated.
Import ListNotations.
Open Scope N_scope.

Lemma pool_shape :
  pool_get_takes_last = true /\ pool_get_skips_closed = true /\ pool_add_skips_closed = true /\
  pool_reap_unexpired_cmp = [0; 0] /\ pool_reap_min_cmp = [0; 0] /\
  pool_reap_purges_closed = 2 /\ pool_reap_ascending = true.
Proof. repeat split; reflexivity. Qed.

(* a new session enters the idle map at creation; a reused one is not put back (root of F2 / F3) *)
Lemma client_glue_shape :
  client_adds_new_session_to_idle = true /\ client_reinserts_on_reuse = false /\
  hb_cfg_is_pool_interval_timeout = true.
Proof. repeat split; reflexivity. Qed.

(* deadline per outstanding request: `sent.elapsed() >= timeout`, cleared by `responses > seen`,
   the counter is advanced by the HeartResponse arm only *)
Lemma hb_rule_shape :
  hb_rule_deadline_per_request = true /\ hb_expire_cmp = 3 /\ hb_answered_cmp = 2 /\
  hb_response_arm_counts = true /\ hb_counter_updates = 1.
Proof. repeat split; reflexivity. Qed.

Lemma cli_positive_seconds :
  cli_rejects_zero_seconds = true /\ cli_interval_timeout_via_parse_u64 = true.
Proof. split; reflexivity. Qed.

Lemma pool_defaults : pool_default_interval_ms = 30000%Z /\ pool_default_timeout_ms = 60000%Z /\ pool_default_min_idle = 1.
Proof. repeat split; reflexivity. Qed.

(* the pool key is assigned before the session enters the idle map, in the real path and in the hook path:
   otherwise every new session is inserted under key `session_initial_seq` and replaces the one idle there *)
Lemma client_seq_before_add :
  client_seq_set_before_add_real = true /\ client_seq_set_before_add_hook = true /\ session_initial_seq = 0.
Proof. repeat split; reflexivity. Qed.

(* a reaper pass is atomic w.r.t. get_idle_session: scan, removal from the map and close all happen under the
   write guard taken for the scan (Model/Pool.v's pool_reap_step is one step; the proofs rely on it) *)
Lemma pool_reap_atomic :
  pool_reap_atomic_under_write_guard = [true; true] /\ pool_get_under_write_guard = true.
Proof. split; reflexivity. Qed.

(* the response baseline of an outstanding keep-alive request is the counter loaded before the request is written *)
Lemma hb_baseline_shape : hb_baseline_before_write = true.
Proof. reflexivity. Qed.

(* FactsCert.v -- side lemmas of the misc/cert package (C18) about regenerated structural facts.
   (Includes the facts about CertReloader::{new,reload} and cert_analyzer.rs: cert_*.) *)
From Coq Require Import List NArith ZArith.
From AnyTLS Require Import Cmd Generated.
Import ListNotations.
Open Scope N_scope.

(* server.rs `Server::listen`: the acceptor snapshot `self.tls_config.read().unwrap().clone()` is taken
   inside the accept loop AFTER `listener.accept().await` returned. This is the premise of C18_snapshot's
   model operation CrAccept ("the connection accepted at step i uses active(st_i)"): were the snapshot
   taken before parking in accept(), the first connection after every successful reload would still be
   served the previous certificate. Also exercised on a real listening socket (driver `certlisten`). *)
Lemma listen_snapshot_after_accept_true : listen_snapshot_after_accept = true.
Proof. reflexivity. Qed.

Lemma cert_reload_cert_reads_1 : cert_reload_cert_reads = 1 /\ cert_new_cert_reads = 1.
Proof. split; reflexivity. Qed.

Lemma cert_reload_key_reads_1 : cert_reload_key_reads = 1 /\ cert_new_key_reads = 1.
Proof. split; reflexivity. Qed.

Lemma cert_reload_commit_shape : cert_reload_commit_writes = 4 /\ cert_reload_commit_after_checks = true.
Proof. split; reflexivity. Qed.

Lemma cert_reload_expiry_exact : cert_reload_expiry_compares_not_after = true.
Proof. reflexivity. Qed.

Lemma cert_reload_expiry_days : cert_reload_expiry_uses_is_expired = true.
Proof. reflexivity. Qed.

Lemma cert_day_arith : cert_secs_per_day = 86400%Z /\ cert_expired_below_days = 0%Z.
Proof. split; reflexivity. Qed.

Lemma cert_check_expiry_on : cert_default_check_expiry = true /\ cert_bin_check_expiry = true.
Proof. split; reflexivity. Qed.

Lemma cert_new_accepts_expired : cert_new_rejects_expired = false.
Proof. reflexivity. Qed.

(* FactsSession.v -- side lemmas of the session package (C01, C02, C08, C10): stream ids start at 1 on both sides;
   the opener waits 30 s *)
From Coq Require Import List NArith ZArith.
From AnyTLS Require Import Cmd Generated.
Import ListNotations.
Open Scope N_scope.

Lemma session_first_ids : client_first_stream_id = 1 /\ server_first_stream_id = 1.
Proof. split; reflexivity. Qed.

Lemma session_synack_timeout : synack_timeout_ms = 30000%Z.
Proof. reflexivity. Qed.

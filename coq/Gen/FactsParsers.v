(* FactsParsers.v -- side lemmas of the parsers package (C06, C07, C15, C16) *)
From Coq Require Import List NArith ZArith.
From AnyTLS Require Import Cmd Generated.
Import ListNotations.
Open Scope N_scope.

Lemma socks_constants :
  socks_socks5_version = 5 /\ socks_auth_no_authentication = 0 /\ socks_auth_not_acceptable = 255 /\
  socks_cmd_connect = 1 /\ socks_atyp_ipv4 = 1 /\ socks_atyp_domain = 3 /\ socks_atyp_ipv6 = 4 /\
  socks_reply_succeeded = 0 /\ socks_reply_general_failure = 1 /\ socks_reply_command_not_supported = 7.
Proof. repeat split; reflexivity. Qed.

Lemma udp_max_both_u16 : udp_max_client = 65535 /\ udp_max_server = 65535.
Proof. split; reflexivity. Qed.

Lemma udp_datagram_fits_frame : 2 + 65507 <= encode_max_payload.
Proof. vm_compute. discriminate. Qed.

Lemma dns_ttl_positive : (0 < dns_ttl_ms)%Z.
Proof. reflexivity. Qed.

Lemma udp_magic_addr_contains_infix :
  udp_magic_addr = [115; 112; 46; 118; 50; 46] ++ udp_magic_infix.
Proof. reflexivity. Qed.

Lemma udp_empty_datagram_forwarded :
  udp_empty_datagram_ends_client = false /\ udp_empty_datagram_ends_server = false.
Proof. split; reflexivity. Qed.

Lemma udp_bind_follows_target : udp_server_bind_follows_target = true.
Proof. reflexivity. Qed.

(* ---- C06: the shape of the authentication gate (premises of Model/Auth.v) ---- *)
Lemma auth_hash_len_32 : auth_hash_len = 32.
Proof. reflexivity. Qed.

(* authenticate_client compares the whole received array with the whole expected array by `!=` *)
Lemma auth_whole_array_comparison : auth_compares_whole_arrays = true.
Proof. reflexivity. Qed.

(* handle_connection: `authenticate_client(..).await?;` is a statement of its own before the session is built:
   no wrapper (timeout/select) and no branch in which the function goes on without an Ok *)
Lemma auth_gate_direct : auth_result_propagated_directly = true.
Proof. reflexivity. Qed.
